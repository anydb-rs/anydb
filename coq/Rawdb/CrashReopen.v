(* The recovery of the allocator model (Alloc.reopen = Regions::fill + Layout::from) does not panic
   on any crash image of an accepted trace.  Layout::from computes `start - prev_end` over the
   regions in start order; the subtraction underflows only when two live extents overlap:
   `reopen_disjoint_no_panic` under `live_disjoint`.  K1 (`k_disj`) gives `live_disjoint` of every
   regions file `rf_image n sigma` read at a crash point: `C05_os_reopen_proof`. *)
From Anydb Require Import Common.Base Common.ListFacts Rawdb.AMap Rawdb.Alloc Rawdb.AllocInv
  Rawdb.AMapFacts Rawdb.InvReopenAux Rawdb.Crash Rawdb.CrashInv.

(* InvReopenAux.s2r_of_spec and InvReopen.gaps_spec say more of the start map, under more: that
   starts determine slots, alignment, a bound.  `live_disjoint` gives none of these: two records
   with an empty reserve may share a start. *)
Definition start_map_ok (sl : list (option rmeta)) (g : amap N) : Prop :=
  forall a i, In (a, i) g -> exists m, get sl i = Some (Some m) /\ r_start m = a.

Lemma s2r_of_props l : forall pre acc,
  asorted acc -> start_map_ok (pre ++ l) acc ->
  asorted (s2r_of l (len pre) acc) /\ start_map_ok (pre ++ l) (s2r_of l (len pre) acc).
Proof.
  induction l as [|x t IH]; intros pre acc Hs Hw; cbn [s2r_of].
  - split; assumption.
  - replace (len pre + 1) with (len (pre ++ [x])) by (rewrite len_app; unfold len; cbn [length]; lia).
    replace (pre ++ x :: t) with ((pre ++ [x]) ++ t) in * by (rewrite <- app_assoc; reflexivity).
    destruct x as [m|]; apply IH; try assumption.
    + apply asorted_ains. exact Hs.
    + intros a i H. apply in_ains in H. destruct H as [H|H]; [|apply Hw; exact H].
      injection H as -> ->. exists m. split; [|reflexivity].
      rewrite <- app_assoc. apply get_app_len.
Qed.

Definition live_disjoint (sl : list (option rmeta)) : Prop :=
  forall i j a b, i <> j -> get sl i = Some (Some a) -> get sl j = Some (Some b) ->
    r_start a + r_reserved a <= r_start b \/ r_start b + r_reserved b <= r_start a.

(* success alone needs no alignment: regions in start order that do not overlap never underflow
   `start - prev_end` *)
Lemma gaps_some sl t : forall p s,
  asorted t ->
  (forall a i, In (a, i) t -> exists m, get sl i = Some (Some m) /\ r_start m = a /\ p <= a) ->
  (forall a i a' i', In (a, i) t -> In (a', i') t -> a < a' -> a + rsv sl i <= a') ->
  exists s1, gaps sl t p s = Some s1.
Proof.
  induction t as [|[start i] t IH]; intros p s Hs Ht Hd; cbn [gaps]; [eauto|].
  destruct (Ht start i (or_introl eq_refl)) as (m & Hm & Hst & Hle). rewrite Hm.
  destruct (N.ltb_spec start p); [lia|].
  apply asorted_cons in Hs. destruct Hs as [Hlb Hs]. apply IH; [exact Hs| |].
  - intros a j HI. destruct (Ht a j (or_intror HI)) as (m' & Hm' & Hst' & _).
    exists m'. split; [exact Hm'|]. split; [exact Hst'|].
    specialize (Hd start i a j (or_introl eq_refl) (or_intror HI) (Hlb _ _ HI)).
    unfold rsv in Hd. now rewrite Hm in Hd.
  - intros a j a' j' HI HI'. apply (Hd a j a' j'); now right.
Qed.

Theorem gaps_total sl s0 : live_disjoint sl -> exists s1, gaps sl (s2r_of sl 0 []) 0 s0 = Some s1.
Proof.
  intros Hd. destruct (s2r_of_props sl [] [] I) as [Hs Hw]; [intros a i []|].
  cbn [app] in Hw. change (len (@nil (option rmeta))) with 0 in *.
  apply gaps_some; [exact Hs| |].
  - intros a i Hin. destruct (Hw a i Hin) as (m & Hm & Ha). exists m. split; [exact Hm|]. split; [exact Ha|lia].
  - (* two entries with different starts are different slots: their extents do not meet *)
    intros a i a' i' Hin Hin' Hlt.
    destruct (Hw a i Hin) as (m & Hm & <-). destruct (Hw a' i' Hin') as (m' & Hm' & <-).
    unfold rsv. rewrite Hm.
    assert (Hne : i <> i') by (intros ->; rewrite Hm in Hm'; injection Hm' as ->; lia).
    destruct (Hd i i' m m' Hne Hm Hm'); lia.
Qed.

Theorem reopen_disjoint_no_panic s : live_disjoint (fill_slots (rfile s)) -> reopen s <> APanic.
Proof.
  intros Hd. unfold reopen. cbv zeta.
  destruct (gaps_total (fill_slots (rfile s))
              (mkSt (fill_slots (rfile s)) [] [] [] [] [] (rfile s) (file_len s) (mem s) []) Hd) as [s1 E].
  rewrite E. discriminate.
Qed.

Definition rf_image (n : N) (sigma : N -> option slotrec) : list (option slotrec) :=
  map sigma (seqN 0 (N.to_nat n)).

Lemma fill_image_get n sigma i a :
  get (fill_slots (rf_image n sigma)) i = Some (Some a) ->
  exists v, sigma i = Some v /\ valid_slotrec v = true /\
            r_start a = sr_start v /\ r_reserved a = sr_reserved v.
Proof.
  unfold fill_slots, rf_image. rewrite get_map, get_map_seqN.
  destruct (i <? N.of_nat (N.to_nat n)); cbn [option_map]; [|discriminate]. rewrite N.add_0_l.
  destruct (sigma i) as [[[[st ln] rs] id]|]; cbn beta iota; [|discriminate].
  destruct (valid_slotrec (st, ln, rs, id)) eqn:Ev; cbn beta iota; [|discriminate].
  intros H. injection H as <-. exists (st, ln, rs, id). repeat split; assumption.
Qed.

Theorem C05_os_reopen_proof :
  forall t1 t2, snd (mon_run mon_init (t1 ++ t2)) = true ->
    let m := fst (mon_run mon_init t1) in
    forall sigma, os_slots m sigma ->
    forall n, live_disjoint (fill_slots (rf_image n sigma))
              /\ forall s, rfile s = rf_image n sigma -> reopen s <> APanic.
Proof.
  intros t1 t2 H m sigma Hs n. pose proof (K_reach t1 t2 H) as HK. fold m in HK.
  assert (Hd : live_disjoint (fill_slots (rf_image n sigma))).
  { intros i j a b Hne Ha Hb.
    apply fill_image_get in Ha. destruct Ha as (v & Hv & Hvv & -> & ->).
    apply fill_image_get in Hb. destruct Hb as (w & Hw & Hvw & -> & ->).
    assert (Hdj : disjoint (sr_start v) (sr_reserved v) (sr_start w) (sr_reserved w) = true).
    { apply (k_disj m HK i j); [exact Hne| |]; [rewrite <- Hv|rewrite <- Hw]; apply Hs. }
    apply valid_reserved_pos in Hvv. apply valid_reserved_pos in Hvw.
    unfold disjoint in Hdj. lia. }
  split; [exact Hd|]. intros s Hrf. apply reopen_disjoint_no_panic. rewrite Hrf. exact Hd.
Qed.
