(* Soundness of the crash monitor in OS mode.  Invariant `U` (per slot `Uslot`): for every slot that
   was live and durable at the last completed flush and whose region id nobody addressed since, the
   only version the disk may hold is the flushed one, the durable bytes of its content are the
   flushed bytes, and no pending data range hits them.  U is kept by two step facts that CrashLib.v
   uses again: `prot_step` (a version that is `Prot`, the only one of its slot and not named by the
   operation in progress, stays so and is missed by the event) and `intact_step` (a content that is
   `Intact` stays so under an event that misses it).  `C05_os_untouched_proof` and `C05_os_proof`
   are Props' C05_os_untouched and C05_os. *)
From Anydb Require Import Common.Base Rawdb.Alloc Rawdb.Crash Rawdb.CrashFacts Rawdb.CrashInv
  Rawdb.CrashLibDefs.

Definition Prot (m : mon) (i : N) (w : slotrec) : Prop :=
  possible m i = [Some w] /\ mem_in (sr_id w) (m_cur m) = false.

(* with k_vmem the volatile bytes of d are those of `base` too: `intact_vmem` *)
Definition Intact (d : option slotrec) (base : content) (m : mon) : Prop :=
  agree_on d (m_dmem m) base /\ pdata_misses d m = true.

Definition Uslot (m : mon) (fmem : content) (i : N) (w : slotrec) : Prop :=
  possible m i = [Some w] /\ Intact (Some w) fmem m.

Definition U (m : mon) : Prop :=
  match m_flushed m with
  | Some (fl, fmem) =>
      forall i w, assoc_get i fl = Some w -> mem_in (sr_id w) (m_touched m) = false -> Uslot m fmem i w
  | None => True
  end.

Lemma live_durable_in m i w : In (i, w) (live_durable m) <-> In (i, Some w) (m_dur m).
Proof.
  unfold live_durable. rewrite in_flat_map. split.
  - intros ([j x] & Hin & H). cbn [fst snd] in H. destruct x as [x|]; [|destruct H].
    destruct H as [H|[]]. injection H as -> ->. exact Hin.
  - intros H. exists (i, Some w). split; [exact H|]. left. reflexivity.
Qed.

Lemma data_ok_protects m off len i w :
  data_ok m off len = true -> possible m i = [Some w] -> mem_in (sr_id w) (m_cur m) = false ->
  disjoint off len (sr_start w) (sr_len w) = true.
Proof.
  intros H Hp Hc. apply (data_ok_spec m off len H i); [rewrite Hp; left; reflexivity|].
  unfold slot_addressed. rewrite Hp. cbn [existsb]. rewrite Hc. reflexivity.
Qed.

Lemma prot_step m e i w :
  Prot m i w -> snd (mon_step m e) = true -> op_avoids (sr_id w) e = true -> meta_avoids i e = true ->
  ev_misses w e = true /\ Prot (fst (mon_step m e)) i w.
Proof.
  intros [Hp Hc] Hok Ho Hm. unfold Prot.
  destruct e as [ |ids| |k v|? ln ?| | | | | | ]; cbn [ev_misses]; try (mcbn; split; [reflexivity|split; assumption]).
  - mcbn. split; [reflexivity|]. split; [exact Hp|].
    cbn [op_avoids] in Ho. destruct (mem_in (sr_id w) ids); [discriminate|reflexivity].
  - mcbn. split; [reflexivity|]. split; [exact Hp|reflexivity].
  - pose proof (possible_meta m k v i) as Hpm. mcbn.
    split; [reflexivity|]. split; [|exact Hc]. rewrite Hpm. cbn [meta_avoids] in Hm.
    destruct (k =? i); [discriminate|exact Hp].
  - mcbn. destruct (ln =? 0) eqn:E0; mcbn.
    + split; [unfold disjoint; lia|split; assumption].
    + apply andb_true_iff in Hok. destruct Hok as [Hd _].
      split; [apply (data_ok_protects m _ _ i); assumption|split; assumption].
  - mcbn. split; [apply (data_ok_protects m _ _ i); assumption|split; assumption].
  - pose proof (possible_metasync m i) as Hpm. mcbn.
    split; [reflexivity|]. split; [|exact Hc]. rewrite Hpm. unfold latest_of. rewrite Hp. reflexivity.
Qed.

Lemma intact_vmem d base m : K m -> Intact d base m -> agree_on d (m_vmem m) base.
Proof.
  intros HK [H2 H3]. pose proof (os_agree m _ d (k_vmem m HK) H3) as Hv.
  destruct d as [w|]; [|exact I]. intros a Ha. rewrite (Hv a Ha). exact (H2 a Ha).
Qed.

(* only a data sync changes the durable bytes, to the volatile ones: hence `intact_vmem` first *)
Lemma intact_step m e d base :
  K m -> Intact d base m -> match d with Some w => ev_misses w e = true | None => True end ->
  Intact d base (fst (mon_step m e)).
Proof.
  intros HK HI Hm. pose proof (intact_vmem d base m HK HI) as Hv. destruct HI as [H2 H3].
  assert (Hadd : forall off len f vm, match d with Some w => disjoint off len (sr_start w) (sr_len w) = true | None => True end ->
            Intact d base (mkMon (m_dur m) (m_pend m) (m_pdata m ++ [(off, len, f)]) (m_dmem m) vm (m_len m) (m_cur m)
                                 (m_flushed m) (m_touched m))).
  { intros off len f vm Hd. split; [exact H2|]. destruct d as [w|]; [|reflexivity].
    cbn [pdata_misses m_pdata] in *. now rewrite forallb_app, H3, andb_true_l; cbn [forallb]; rewrite Hd. }
  destruct e as [ | | | |? ln ?| | | | | | ]; mcbn; try (split; assumption).
  - destruct (ln =? 0); mcbn; [split; assumption|]. now apply Hadd.
  - now apply Hadd.
  - split; [exact Hv|]. now destruct d.
Qed.

Lemma flushed_step m e :
  match e with CFlushed => False | _ => True end -> m_flushed (fst (mon_step m e)) = m_flushed m.
Proof. destruct e as [ | | | |? ln ?| | | | | | ]; intros H; try destruct H; mcbn; auto. now destruct (ln =? 0). Qed.

Lemma touched_step m e x :
  match e with CFlushed => False | _ => True end ->
  mem_in x (m_touched (fst (mon_step m e))) = negb (op_avoids x e) || mem_in x (m_touched m).
Proof.
  destruct e as [ | | | |? ln ?| | | | | | ]; intros H; try destruct H; mcbn; cbn [op_avoids negb orb]; auto.
  - now rewrite mem_in_app, negb_involutive.
  - now destruct (ln =? 0).
Qed.

Lemma U_step m e : K m -> U m -> snd (mon_step m e) = true -> U (fst (mon_step m e)).
Proof.
  intros HK HU Hok.
  (* an untouched slot was untouched before, e does not name its region, M2 keeps e off the slot,
     and m_cur is part of m_touched: the slot stays protected and its content intact *)
  assert (Hkeep : match e with CFlushed => False | _ => True end -> U (fst (mon_step m e))).
  { intros Hne. unfold U in *. rewrite (flushed_step m e Hne).
    destruct (m_flushed m) as [[fl fmem]|] eqn:Ef; [|exact I]. intros i w Hg Ht.
    rewrite (touched_step m e _ Hne) in Ht. apply orb_false_iff in Ht. destruct Ht as [Ho Ht].
    apply negb_false_iff in Ho. destruct (HU i w Hg Ht) as (H1 & Hint).
    assert (Hm : meta_avoids i e = true).
    { destruct e as [ | | |k ?| | | | | | | ]; try reflexivity. cbn [meta_avoids]. mcbn. apply andb_true_iff in Hok. destruct Hok as [_ M2].
      unfold untouched_slot_ok in M2. rewrite Ef in M2. destruct (N.eqb_spec k i) as [->|]; [|reflexivity].
      rewrite Hg, Ht in M2. discriminate. }
    assert (Hc : mem_in (sr_id w) (m_cur m) = false).
    { destruct (mem_in (sr_id w) (m_cur m)) eqn:Ec; [|reflexivity]. apply (k_cur m HK) in Ec. congruence. }
    destruct (prot_step m e i w (conj H1 Hc) Hok Ho Hm) as (Hmiss & Hp & _).
    exact (conj Hp (intact_step m e (Some w) fmem HK Hint Hmiss)). }
  destruct e; try (apply Hkeep; exact I).
  (* CFlushed: M6 establishes U for the new snapshot *)
  unfold U. mcbn. intros i w Hg Ht. destruct (m_pend m) as [|p pl] eqn:Ep; [|discriminate].
  apply assoc_get_in in Hg. split; [|split].
  - rewrite possible_eq. mcbn. cbn [pend_of filter map]. f_equal.
    unfold dur_get. apply live_durable_in in Hg.
    rewrite (assoc_get_nodup _ _ _ (k_nodup m HK) Hg). reflexivity.
  - intros a _. reflexivity.
  - rewrite forallb_forall in Hok. exact (Hok _ Hg).
Qed.

Lemma KU_step m e : K m /\ U m -> snd (mon_step m e) = true -> K (fst (mon_step m e)) /\ U (fst (mon_step m e)).
Proof. intros [HK HU] H. split; [apply K_step|apply U_step]; assumption. Qed.

Lemma KU_reach t1 t2 :
  snd (mon_run mon_init (t1 ++ t2)) = true ->
  K (fst (mon_run mon_init t1)) /\ U (fst (mon_run mon_init t1)).
Proof.
  intros H. apply mon_run_app in H.
  apply (run_inv (fun m => K m /\ U m) KU_step); [split; [exact K_init|exact I]|tauto].
Qed.

Theorem C05_os_untouched_proof :
  forall t1 t2, snd (mon_run mon_init (t1 ++ t2)) = true ->
    let m := fst (mon_run mon_init t1) in
    forall fl fmem, m_flushed m = Some (fl, fmem) ->
    forall i w, assoc_get i fl = Some w -> mem_in (sr_id w) (m_touched m) = false ->
      possible m i = [Some w]
      /\ forall img, os_data m img -> forall a, sr_start w <= a < sr_start w + sr_len w -> img a = fmem a.
Proof.
  intros t1 t2 H m fl fmem Hf i w Hg Ht. destruct (KU_reach t1 t2 H) as [HK HU]. fold m in HK, HU.
  unfold U in HU. rewrite Hf in HU. destruct (HU i w Hg Ht) as (H1 & H2 & H3). split; [exact H1|].
  intros img Himg a Ha. rewrite <- (H2 a Ha). exact (os_agree m img (Some w) Himg H3 a Ha).
Qed.

(* what C05 promises of a crash image in OS mode *)
Definition os_safe (m : mon) (sigma : N -> option slotrec) (img : content) : Prop :=
  pairwise_disjoint (recovered m sigma) /\ inside_file m (recovered m sigma)
  /\ match m_flushed m with
     | Some (fl, fmem) =>
         forall i w, assoc_get i fl = Some w -> mem_in (sr_id w) (m_touched m) = false ->
           sigma i = Some w /\ forall a, sr_start w <= a < sr_start w + sr_len w -> img a = fmem a
     | None => True
     end.

(* the FULL statement of Props/C05.v (C05_os_full, restated here because Props files hold no proofs) *)
Theorem C05_os_proof :
  forall t1 t2, snd (mon_run mon_init (t1 ++ t2)) = true ->
    let m := fst (mon_run mon_init t1) in
    forall sigma img, os_slots m sigma -> os_data m img ->
      os_safe m sigma img.
Proof.
  intros t1 t2 H m sigma img Hs Hd.
  destruct (C05_os_layout_proof t1 t2 H sigma Hs) as [Hpd Hin]. fold m in Hpd, Hin.
  split; [exact Hpd|]. split; [exact Hin|].
  destruct (m_flushed m) as [[fl fmem]|] eqn:Ef; [|exact I].
  intros i w Hg Ht. destruct (C05_os_untouched_proof t1 t2 H fl fmem Ef i w Hg Ht) as [Hp Hc].
  split.
  - specialize (Hs i). fold m in Hp. rewrite Hp in Hs. destruct Hs as [Hs|[]]. congruence.
  - intros a Ha. exact (Hc img Hd a Ha).
Qed.
