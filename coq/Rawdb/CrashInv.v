(* What each accepted check of the crash monitor says (`meta_ok_spec`, `data_ok_spec`,
   `metasync_ok_spec`) and the monitor's invariant `K`: of DESIGN.md appendix B.3 it holds K1
   (`k_disj`) and K5 (`k_inside`); K4 is `U` of CrashSound.v; K2 and K3 speak of the allocator's
   layout, which the monitor does not see: they are the clause `c_geo` of the coupling in
   AllocDisciplined.v.  `C05_os_layout_proof` is Props' C05_os_layout.  The later crash files use
   the tactic `mcbn` (one monitor step).  `latest_of`, `agree_on`, `pdata_misses` are defined in
   CrashLibDefs.v, although both fault models use them. *)
From Anydb Require Import Common.Base Gen.Consts Rawdb.Alloc Rawdb.Crash Rawdb.CrashFacts
  Rawdb.CrashLibDefs.

Ltac mcbn := cbn [mon_step fst snd m_dur m_pend m_pdata m_dmem m_vmem m_len m_cur m_flushed m_touched] in *.

Lemma assoc_get_set {V} k k' (v : V) l :
  assoc_get k' (assoc_set k v l) = if k =? k' then Some v else assoc_get k' l.
Proof.
  induction l as [|[a b] t IH]; cbn [assoc_set assoc_get]; [reflexivity|].
  destruct (N.eqb_spec a k) as [->|Hne]; cbn [assoc_get].
  - destruct (k =? k'); reflexivity.
  - rewrite IH. destruct (N.eqb_spec a k') as [->|_]; [|reflexivity].
    destruct (N.eqb_spec k k') as [->|_]; [destruct Hne|]; reflexivity.
Qed.

Lemma assoc_get_in {V} k (v : V) l : assoc_get k l = Some v -> In (k, v) l.
Proof.
  induction l as [|[a b] t IH]; cbn [assoc_get]; [discriminate|].
  destruct (N.eqb_spec a k) as [->|_]; intros H.
  - injection H as ->. left. reflexivity.
  - right. auto.
Qed.

Lemma assoc_set_keys {V} k (v : V) l x :
  In x (map fst (assoc_set k v l)) <-> x = k \/ In x (map fst l).
Proof.
  induction l as [|[a b] t IH]; cbn [assoc_set map fst In]; [intuition|].
  destruct (N.eqb_spec a k) as [->|_]; cbn [map fst In]; [|rewrite IH]; intuition.
Qed.

Lemma assoc_set_nodup {V} k (v : V) l : NoDup (map fst l) -> NoDup (map fst (assoc_set k v l)).
Proof.
  induction l as [|[a b] t IH]; cbn [assoc_set map fst]; intros ND.
  - constructor; [intros []|constructor].
  - inversion ND as [|? ? Hn ND']; subst.
    destruct (N.eqb_spec a k) as [->|Hne]; cbn [map fst]; constructor; auto.
    rewrite assoc_set_keys. intros [->|H]; auto.
Qed.

Lemma assoc_get_nodup {V} k (v : V) l : NoDup (map fst l) -> In (k, v) l -> assoc_get k l = Some v.
Proof.
  induction l as [|[a b] t IH]; cbn [map fst In assoc_get]; intros ND H; [tauto|].
  inversion ND as [|? ? Hn ND']; subst. destruct H as [H|H].
  - injection H as -> ->. rewrite N.eqb_refl. reflexivity.
  - destruct (N.eqb_spec a k) as [->|_]; [|auto].
    destruct Hn. exact (in_map fst _ _ H).
Qed.

(* dur_of and the pending versions, over arbitrary lists *)
Definition dur_get (l : list (N * option slotrec)) (i : N) : option slotrec :=
  match assoc_get i l with Some v => v | None => None end.
Definition pend_of (l : list (N * option slotrec)) (i : N) : list (option slotrec) :=
  map snd (filter (fun p => fst p =? i) l).

Lemma possible_eq m i : possible m i = dur_get (m_dur m) i :: pend_of (m_pend m) i.
Proof. reflexivity. Qed.

Lemma pend_of_app l1 l2 i : pend_of (l1 ++ l2) i = pend_of l1 i ++ pend_of l2 i.
Proof. unfold pend_of. rewrite filter_app, map_app. reflexivity. Qed.

Lemma pend_of_one j v i : pend_of [(j, v)] i = if j =? i then [v] else [].
Proof. unfold pend_of. cbn [filter fst]. destruct (j =? i); reflexivity. Qed.

Lemma in_pend_of l i v : In v (pend_of l i) <-> In (i, v) l.
Proof.
  unfold pend_of. rewrite in_map_iff. split.
  - intros ([j x] & <- & Hf). apply filter_In in Hf. destruct Hf as [Hin He].
    apply N.eqb_eq in He. cbn [fst snd] in *. subst j. exact Hin.
  - intros H. exists (i, v). split; [reflexivity|]. apply filter_In. split; [exact H|apply N.eqb_refl].
Qed.

Lemma last_cons_cons {A} (a b : A) l d : last (a :: b :: l) d = last (b :: l) d.
Proof. reflexivity. Qed.

Lemma last_in {A} (a : A) l d : In (last (a :: l) d) (a :: l).
Proof.
  revert a. induction l as [|b t IH]; intros a.
  - left. reflexivity.
  - rewrite last_cons_cons. right. apply IH.
Qed.

Lemma latest_pend_get l acc i :
  dur_get (latest_pend l acc) i = last (dur_get acc i :: pend_of l i) None.
Proof.
  revert acc. induction l as [|[j v] t IH]; intros acc; cbn [latest_pend].
  - reflexivity.
  - rewrite IH. change ((j, v) :: t) with ([(j, v)] ++ t). rewrite pend_of_app, pend_of_one.
    unfold dur_get at 1. rewrite assoc_get_set.
    destruct (j =? i); cbn [app]; reflexivity.
Qed.

Lemma latest_pend_nodup l acc : NoDup (map fst acc) -> NoDup (map fst (latest_pend l acc)).
Proof.
  revert acc. induction l as [|[j v] t IH]; intros acc H; cbn [latest_pend]; [exact H|].
  apply IH. apply assoc_set_nodup. exact H.
Qed.

Lemma dur_get_latest m i : dur_get (latest_pend (m_pend m) (m_dur m)) i = latest_of m i.
Proof. apply latest_pend_get. Qed.

Lemma dur_after_metasync m i : dur_of (fst (mon_step m CMetaSync)) i = latest_of m i.
Proof. apply dur_get_latest. Qed.

Lemma possible_metasync m i : possible (fst (mon_step m CMetaSync)) i = [latest_of m i].
Proof. rewrite possible_eq. cbn [mon_step fst m_dur m_pend]. rewrite dur_get_latest. reflexivity. Qed.

Lemma latest_in_possible m i : In (latest_of m i) (possible m i).
Proof. apply last_in. Qed.

Lemma in_possible_all_slots m i v : In (Some v) (possible m i) -> In i (all_slots m).
Proof.
  rewrite possible_eq. unfold all_slots. rewrite nodup_In, in_app_iff. intros [H|H].
  - left. unfold dur_get in H. destruct (assoc_get i (m_dur m)) as [x|] eqn:E; [|discriminate].
    subst. exact (in_map fst _ _ (assoc_get_in _ _ _ E)).
  - right. apply in_pend_of in H. exact (in_map fst _ _ H).
Qed.

Lemma possible_meta m i v j :
  possible (fst (mon_step m (CMeta i v))) j = if i =? j then possible m j ++ [v] else possible m j.
Proof.
  mcbn. rewrite !possible_eq. mcbn. rewrite pend_of_app, pend_of_one.
  destruct (i =? j); [reflexivity|]. rewrite app_nil_r. reflexivity.
Qed.

Lemma disjoint_sym a1 z1 a2 z2 : disjoint a1 z1 a2 z2 = disjoint a2 z2 a1 z1.
Proof. unfold disjoint. lia. Qed.

Lemma disjoint_no_common a1 z1 a2 z2 a :
  disjoint a1 z1 a2 z2 = true -> a1 <= a < a1 + z1 -> a2 <= a < a2 + z2 -> False.
Proof. unfold disjoint. lia. Qed.

Lemma disjoint_of_points a1 z1 a2 z2 :
  (forall a, a1 <= a < a1 + z1 -> a2 <= a < a2 + z2 -> False) -> disjoint a1 z1 a2 z2 = true.
Proof.
  intros H. unfold disjoint.
  destruct (z1 =? 0) eqn:E1; [lia|]. destruct (z2 =? 0) eqn:E2; [lia|].
  destruct (a1 + z1 <=? a2) eqn:E3; [lia|]. destruct (a2 + z2 <=? a1) eqn:E4; [lia|].
  exfalso. apply (H (N.max a1 a2)); lia.
Qed.

Lemma valid_len_le w : valid_slotrec w = true -> sr_len w <= sr_reserved w.
Proof. destruct w as [[[a l] r] id]. unfold valid_slotrec, sr_len, sr_reserved. lia. Qed.

Lemma valid_reserved_pos v : valid_slotrec v = true -> 0 < sr_reserved v.
Proof.
  destruct v as [[[st ln] rs] id]. unfold valid_slotrec, sr_reserved, PAGE_SIZE. lia.
Qed.

Lemma mem_in_app x l1 l2 : mem_in x (l1 ++ l2) = mem_in x l1 || mem_in x l2.
Proof. unfold mem_in. apply existsb_app. Qed.

Lemma mem_in_head x l : mem_in x (x :: l) = true.
Proof. unfold mem_in. cbn [existsb]. rewrite N.eqb_refl. reflexivity. Qed.

Lemma mem_in_In x l : mem_in x l = true <-> In x l.
Proof.
  unfold mem_in. rewrite existsb_exists. split.
  - intros (y & Hy & E). apply N.eqb_eq in E. subst. exact Hy.
  - intros H. exists x. split; [exact H|apply N.eqb_refl].
Qed.

(* M1 *)
Lemma meta_ok_spec m i v :
  meta_ok m i v = true ->
  valid_slotrec v = true /\ sr_start v + sr_reserved v <= m_len m /\
  forall j w, j <> i -> In (Some w) (possible m j) ->
    disjoint (sr_start v) (sr_reserved v) (sr_start w) (sr_reserved w) = true.
Proof.
  unfold meta_ok. rewrite !andb_true_iff. intros [[Hv Hl] Hf]. split; [exact Hv|]. split; [lia|].
  intros j w Hne Hin. rewrite forallb_forall in Hf.
  specialize (Hf j (in_possible_all_slots _ _ _ Hin)). apply orb_true_iff in Hf.
  destruct Hf as [Hf|Hf]; [lia|]. rewrite forallb_forall in Hf. exact (Hf _ Hin).
Qed.

(* M3/M4 *)
Lemma data_ok_spec m off len :
  data_ok m off len = true ->
  forall i v, In (Some v) (possible m i) -> slot_addressed m i = false ->
    disjoint off len (sr_start v) (sr_len v) = true.
Proof.
  unfold data_ok. intros H i v Hin Ha. rewrite forallb_forall in H.
  specialize (H i (in_possible_all_slots _ _ _ Hin)). rewrite Ha in H. cbn [orb] in H.
  rewrite forallb_forall in H. exact (H _ Hin).
Qed.

Lemma data_ok_intro m off len :
  (forall j, slot_addressed m j = true
             \/ forall w, In (Some w) (possible m j) -> disjoint off len (sr_start w) (sr_len w) = true) ->
  data_ok m off len = true.
Proof.
  intros H. unfold data_ok. apply forallb_forall. intros j _. apply orb_true_iff.
  destruct (H j) as [Ha|Hd]; [left; exact Ha|right]. apply forallb_forall. intros [w|] Hw; [exact (Hd w Hw)|reflexivity].
Qed.

(* M5: the version a metadata sync makes durable for a slot with pending writes is the last of
   them, and its content has been synced *)
Lemma in_latest_pend l i v : In (i, Some v) (latest_pend l []) <-> last (None :: pend_of l i) None = Some v.
Proof.
  pose proof (latest_pend_get l [] i) as Hg. change (dur_get [] i) with (@None slotrec) in Hg. rewrite <- Hg.
  assert (Hnd : NoDup (map fst (latest_pend l []))) by (apply latest_pend_nodup; constructor).
  unfold dur_get. split.
  - intros Hin. now rewrite (assoc_get_nodup i _ _ Hnd Hin).
  - destruct (assoc_get i _) as [x|] eqn:Ea; [|discriminate]. intros ->. now apply assoc_get_in.
Qed.

Lemma metasync_ok_spec m :
  metasync_ok m = true <->
  forall i v, last (None :: pend_of (m_pend m) i) None = Some v -> pdata_misses (Some v) m = true.
Proof.
  unfold metasync_ok. rewrite forallb_forall. split.
  - intros H i v Hl. exact (H (i, Some v) (proj2 (in_latest_pend _ i v) Hl)).
  - intros H [k [v|]] Hin; [|reflexivity]. exact (H k v (proj1 (in_latest_pend _ k v) Hin)).
Qed.

Lemma os_agree m img v : os_data m img -> pdata_misses v m = true -> agree_on v img (m_dmem m).
Proof.
  intros Hi Hp. destruct v as [w|]; [|exact I]. intros a Ha.
  destruct (Hi a) as [E|(o & l & g & Hin & Hr & _)]; [exact E|]. exfalso.
  cbn [pdata_misses] in Hp. rewrite forallb_forall in Hp.
  exact (disjoint_no_common _ _ _ _ a (Hp _ Hin) Hr Ha).
Qed.

Definition Kdisj (m : mon) : Prop :=
  forall i j v w, i <> j -> In (Some v) (possible m i) -> In (Some w) (possible m j) ->
    disjoint (sr_start v) (sr_reserved v) (sr_start w) (sr_reserved w) = true.
Definition Kinside (m : mon) : Prop :=
  forall i v, In (Some v) (possible m i) -> valid_slotrec v = true /\ sr_start v + sr_reserved v <= m_len m.
Definition Kcur (m : mon) : Prop :=
  forall x, mem_in x (m_cur m) = true -> mem_in x (m_touched m) = true.

Record K (m : mon) : Prop := mkK {
  k_disj : Kdisj m;
  k_inside : Kinside m;
  k_nodup : NoDup (map fst (m_dur m));
  k_vmem : os_data m (m_vmem m);
  k_cur : Kcur m
}.

Lemma Kdisj_incl m m' : (forall i, incl (possible m' i) (possible m i)) -> Kdisj m -> Kdisj m'.
Proof. intros Hs H i j v w Hne Hv Hw. apply (H i j); auto; apply Hs; assumption. Qed.

Lemma Kinside_incl m m' :
  (forall i, incl (possible m' i) (possible m i)) -> m_len m <= m_len m' -> Kinside m -> Kinside m'.
Proof. intros Hs Hl H i v Hv. destruct (H i v (Hs _ _ Hv)) as [H1 H2]. split; [exact H1|lia]. Qed.

Lemma K_init : K mon_init.
Proof.
  constructor.
  - intros i j v w _ [H|[]]. discriminate.
  - intros i v [H|[]]. discriminate.
  - constructor.
  - intros a. left. reflexivity.
  - intros x H. discriminate.
Qed.

(* the conclusion is `os_data` of the state after the data write or punch, spelled out *)
Lemma os_data_write m off len f img :
  os_data m img -> forall a,
  write_mem img off len f a = m_dmem m a \/
  exists off' len' f', In (off', len', f') (m_pdata m ++ [(off, len, f)]) /\ off' <= a < off' + len'
                       /\ write_mem img off len f a = f' a.
Proof.
  intros H a. unfold write_mem. destruct ((off <=? a) && (a <? off + len)) eqn:E.
  - right. exists off, len, f. split; [apply in_or_app; right; left; reflexivity|]. split; [lia|reflexivity].
  - destruct (H a) as [Ha|(o & l & g & Hin & Hr & Hv)]; [left; exact Ha|].
    right. exists o, l, g. split; [apply in_or_app; left; exact Hin|]. split; [exact Hr|exact Hv].
Qed.

Lemma K_step m e : K m -> snd (mon_step m e) = true -> K (fst (mon_step m e)).
Proof.
  intros [Hd Hi Hn Hv Hc] Hok. destruct e as [ | | |k v|? ln ?| | | | | | ].
  - mcbn. constructor; try assumption.
    apply (Kinside_incl m); [intros i; apply incl_refl|mcbn; lia|exact Hi].
  - mcbn. constructor; try assumption.
    intros x Hx. mcbn. rewrite mem_in_app, Hx. reflexivity.
  - mcbn. constructor; try assumption. intros x Hx. discriminate.
  - assert (Hsub : forall j x, In (Some x) (possible (fst (mon_step m (CMeta k v))) j) ->
              In (Some x) (possible m j) \/ (j = k /\ v = Some x)).
    { intros j x Hx. rewrite possible_meta in Hx. destruct (N.eqb_spec k j) as [->|_]; [|left; exact Hx].
      apply in_app_or in Hx. destruct Hx as [Hx|[Hx|[]]]; [left; exact Hx|right]. split; [reflexivity|exact Hx]. }
    assert (Hm : forall x, v = Some x -> meta_ok m k x = true).
    { intros x ->. mcbn. apply andb_true_iff in Hok. tauto. }
    constructor; try assumption.
    + intros i j a b Hne Ha Hb. apply Hsub in Ha. apply Hsub in Hb.
      destruct Ha as [Ha|[-> Ha]]; destruct Hb as [Hb|[-> Hb]].
      * apply (Hd i j); assumption.
      * rewrite disjoint_sym. apply (proj2 (proj2 (meta_ok_spec _ _ _ (Hm _ Hb))) i); assumption.
      * apply (proj2 (proj2 (meta_ok_spec _ _ _ (Hm _ Ha))) j); [congruence|assumption].
      * congruence.
    + intros i a Ha. apply Hsub in Ha. destruct Ha as [Ha|[-> Ha]].
      * apply Hi in Ha. exact Ha.
      * apply Hm in Ha. apply meta_ok_spec in Ha. mcbn. tauto.
  - mcbn. destruct (ln =? 0) eqn:E0; mcbn; [constructor; assumption|].
    constructor; try assumption. intros a. mcbn. apply os_data_write. exact Hv.
  - mcbn. constructor; try assumption. intros a. mcbn. apply os_data_write. exact Hv.
  - mcbn. constructor; try assumption. intros a. left. reflexivity.
  - assert (Hsub : forall i, incl (possible (fst (mon_step m CMetaSync)) i) (possible m i)).
    { intros i x Hx. rewrite possible_metasync in Hx. destruct Hx as [<-|[]]. apply latest_in_possible. }
    constructor.
    + apply (Kdisj_incl m); assumption.
    + apply (Kinside_incl m); [assumption|mcbn; lia|assumption].
    + mcbn. apply latest_pend_nodup. exact Hn.
    + exact Hv.
    + exact Hc.
  - mcbn. constructor; assumption.
  - mcbn. constructor; try assumption. intros x Hx. exact Hx.
  - mcbn. constructor; assumption.
Qed.

Lemma run_inv (P : mon -> Prop) :
  (forall m e, P m -> snd (mon_step m e) = true -> P (fst (mon_step m e))) ->
  forall t m, P m -> snd (mon_run m t) = true -> P (fst (mon_run m t)).
Proof.
  intros Hstep. induction t as [|e t IH]; intros m Hm; [intros _; exact Hm|].
  rewrite mon_run_cons. destruct (snd (mon_step m e)) eqn:E; [|discriminate].
  apply IH, Hstep; assumption.
Qed.

Lemma K_run t m : K m -> snd (mon_run m t) = true -> K (fst (mon_run m t)).
Proof. apply (run_inv K). exact K_step. Qed.

Lemma K_reach t1 t2 : snd (mon_run mon_init (t1 ++ t2)) = true -> K (fst (mon_run mon_init t1)).
Proof. intros H. apply mon_run_app in H. apply K_run; [exact K_init|tauto]. Qed.

Lemma in_recovered m sigma i v : In (i, v) (recovered m sigma) -> sigma i = Some v.
Proof.
  unfold recovered. rewrite in_flat_map. intros (x & _ & H).
  destruct (sigma x) as [u|] eqn:E; [|destruct H]. destruct H as [H|[]]. congruence.
Qed.

Theorem C05_os_layout_proof :
  forall t1 t2, snd (mon_run mon_init (t1 ++ t2)) = true ->
    let m := fst (mon_run mon_init t1) in
    forall sigma, os_slots m sigma ->
      pairwise_disjoint (recovered m sigma) /\ inside_file m (recovered m sigma).
Proof.
  intros t1 t2 H m sigma Hs. pose proof (K_reach t1 t2 H) as HK. fold m in HK. split.
  - intros i j v w Hv Hw Hne. apply in_recovered in Hv. apply in_recovered in Hw.
    apply (k_disj m HK i j); [exact Hne| |]; [rewrite <- Hv|rewrite <- Hw]; apply Hs.
  - intros i v Hv. apply in_recovered in Hv. apply (k_inside m HK i). rewrite <- Hv. apply Hs.
Qed.
