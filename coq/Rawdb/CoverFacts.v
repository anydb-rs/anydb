(* Rawdb/CoverFacts.v — `owners l a` is the sum of `cov e a` over l (`owners_cons`, `owners_app`), which
   turns the cover clause of Inv into linear arithmetic over nat; the slot table is read through `slot`
   alone (`slot_put_slot`, `slot_upd`, `slot_set_*`). *)
From Anydb Require Import Common.Base Common.ListFacts Gen.Consts Rawdb.AMap Rawdb.Alloc Rawdb.AllocInv.

Lemma PAGE_pos : 0 < PAGE_SIZE. Proof. reflexivity. Qed.
Lemma PAGE_nz : PAGE_SIZE <> 0. Proof. discriminate. Qed.
Lemma PAGE_M1 : PAGE_SIZE_MINUS_1 = PAGE_SIZE - 1. Proof. reflexivity. Qed.
Lemma GROW_FACTOR_2 : GROW_FACTOR = 2. Proof. reflexivity. Qed.
Lemma RESERVE_FACTOR_2 : RESERVE_FACTOR = 2. Proof. reflexivity. Qed.
Lemma NEW_RESERVED_PAGE : NEW_REGION_RESERVED = PAGE_SIZE. Proof. reflexivity. Qed.
Lemma NEW_LEN_0 : NEW_REGION_LEN = 0. Proof. reflexivity. Qed.
Lemma PAGE_le_MAX : PAGE_SIZE <= MAX_RESERVED_SIZE. Proof. discriminate. Qed.
Lemma MAX_mod_PAGE : MAX_RESERVED_SIZE mod PAGE_SIZE = 0. Proof. reflexivity. Qed.
Lemma MAX_x4_lt_two64 : MAX_RESERVED_SIZE * 4 < two64. Proof. reflexivity. Qed.
Lemma PAGE_mod_PAGE : PAGE_SIZE mod PAGE_SIZE = 0. Proof. reflexivity. Qed.

Lemma mod0_add p a b : p <> 0 -> a mod p = 0 -> b mod p = 0 -> (a + b) mod p = 0.
Proof.
  intros Hp Ha Hb. apply N.mod_divides in Ha, Hb; auto. destruct Ha as [c ->], Hb as [d ->].
  rewrite <- N.mul_add_distr_l, N.mul_comm. apply N.mod_mul; auto.
Qed.
Lemma mod0_sub p a b : p <> 0 -> a mod p = 0 -> b mod p = 0 -> (a - b) mod p = 0.
Proof.
  intros Hp Ha Hb. apply N.mod_divides in Ha, Hb; auto. destruct Ha as [c ->], Hb as [d ->].
  rewrite <- N.mul_sub_distr_l, N.mul_comm. apply N.mod_mul; auto.
Qed.
Lemma mod0_ge p a : p <> 0 -> a mod p = 0 -> 0 < a -> p <= a.
Proof.
  intros Hp Ha Hpos. apply N.mod_divides in Ha; auto. destruct Ha as [c ->].
  destruct c; [lia|]. nia.
Qed.

Lemma aligned_rest a p z : aligned (a, z) -> p mod PAGE_SIZE = 0 -> p < z -> aligned ((a + p)%N, (z - p)%N).
Proof.
  intros (H1 & H2 & _) Hp Hlt. cbn [fst snd] in H1, H2. repeat split; cbn [fst snd].
  - now apply mod0_add.
  - now apply mod0_sub.
  - now apply N.lt_add_lt_sub_r.
Qed.
Lemma aligned_app a z1 z2 : aligned (a, z1) -> aligned ((a + z1)%N, z2) -> aligned (a, z1 + z2).
Proof.
  intros (H1 & H2 & H3) (_ & H4 & _). cbn [fst snd] in *. repeat split; cbn [fst snd]; auto.
  - now apply mod0_add.
  - now apply N.add_pos_l.
Qed.

Lemma ceil_page_mod n : ceil_page n mod PAGE_SIZE = 0.
Proof. unfold ceil_page. apply N.mod_mul. exact PAGE_nz. Qed.
Lemma ceil_page_ge n : n <= ceil_page n.
Proof. unfold ceil_page, PAGE_SIZE_MINUS_1, PAGE_SIZE. lia. Qed.
Lemma ceil_page_lt n : ceil_page n < n + PAGE_SIZE.
Proof. unfold ceil_page, PAGE_SIZE_MINUS_1, PAGE_SIZE. lia. Qed.
Lemma ceil_page_aligned n : n mod PAGE_SIZE = 0 -> ceil_page n = n.
Proof. unfold ceil_page, PAGE_SIZE_MINUS_1, PAGE_SIZE. lia. Qed.
Lemma ceil_page_mono a b : a <= b -> ceil_page a <= ceil_page b.
Proof. unfold ceil_page, PAGE_SIZE_MINUS_1, PAGE_SIZE. lia. Qed.

Definition cov (e : ext) (a : N) : nat := if covers e a then 1%nat else 0%nat.

Lemma owners_nil a : owners [] a = 0%nat.
Proof. reflexivity. Qed.
Lemma owners_cons e l a : owners (e :: l) a = (cov e a + owners l a)%nat.
Proof. unfold owners, cov. cbn [filter]. destruct (covers e a); reflexivity. Qed.
Lemma owners_app l1 l2 a : owners (l1 ++ l2) a = (owners l1 a + owners l2 a)%nat.
Proof. unfold owners. rewrite filter_app, app_length. reflexivity. Qed.
Lemma owners_one e a : owners [e] a = cov e a.
Proof. rewrite owners_cons, owners_nil. lia. Qed.

Lemma owners_in e l a : In e l -> (cov e a <= owners l a)%nat.
Proof.
  induction l as [|x l IH]; [intros []|]. rewrite owners_cons.
  intros [->|HI]; [lia|]. specialize (IH HI). lia.
Qed.

Lemma owners_in2 e1 e2 l a : In e1 l -> In e2 l -> e1 <> e2 -> (cov e1 a + cov e2 a <= owners l a)%nat.
Proof.
  induction l as [|x l IH]; [intros []|]. rewrite owners_cons.
  intros [->|H1] [->|H2] Hne.
  - congruence.
  - pose proof (owners_in e2 l a H2). lia.
  - pose proof (owners_in e1 l a H1). lia.
  - specialize (IH H1 H2 Hne). lia.
Qed.

Lemma cov_true e a : covers e a = true -> cov e a = 1%nat.
Proof. unfold cov. now intros ->. Qed.
Lemma cov_false e a : covers e a = false -> cov e a = 0%nat.
Proof. unfold cov. now intros ->. Qed.
Lemma cov_zero_size k a : cov (k, 0) a = 0%nat.
Proof. unfold cov, covers. cbn [fst snd]. destruct ((k <=? a) && (a <? k + 0)) eqn:E; [lia|reflexivity]. Qed.

Lemma cover_end_le l L e :
  (forall a, owners l a = if a <? L then 1%nat else 0%nat) -> In e l -> 0 < snd e -> fst e + snd e <= L.
Proof.
  intros Hc HI Hp. specialize (Hc (fst e + snd e - 1)). pose proof (owners_in e l (fst e + snd e - 1) HI) as Ho.
  rewrite (cov_true e) in Ho by (unfold covers; lia). destruct (fst e + snd e - 1 <? L) eqn:E; lia.
Qed.

Lemma owners_pos_ex l a : (0 < owners l a)%nat -> exists e, In e l /\ covers e a = true.
Proof.
  induction l as [|x l IH]; [rewrite owners_nil; lia|]. rewrite owners_cons. unfold cov.
  destruct (covers x a) eqn:E.
  - intros _. exists x. split; [left; reflexivity|exact E].
  - intros H. destruct IH as (e & HI & Hc); [lia|]. exists e. split; [right|]; assumption.
Qed.

Lemma cov_app a z1 z2 x : cov (a, z1 + z2) x = (cov (a, z1) x + cov ((a + z1)%N, z2) x)%nat.
Proof.
  unfold cov, covers. cbn [fst snd].
  destruct (N.leb_spec a x), (N.ltb_spec x (a + z1)), (N.leb_spec (a + z1) x), (N.ltb_spec x (a + z1 + z2)),
    (N.ltb_spec x (a + (z1 + z2))); cbn [andb]; lia.
Qed.
Lemma cov_split a p z x : p <= z -> cov (a, z) x = (cov (a, p) x + cov ((a + p)%N, (z - p)%N) x)%nat.
Proof. intros Hle. rewrite <- cov_app. do 2 f_equal. lia. Qed.
Lemma below_cov L x : (if x <? L then 1%nat else 0%nat) = cov (0, L) x.
Proof. unfold cov, covers. cbn [fst snd]. rewrite N.add_0_l. destruct (N.leb_spec 0 x); [reflexivity|lia]. Qed.
Lemma below_app L p x :
  (if x <? L + p then 1%nat else 0%nat) = ((if (x <? L)%N then 1 else 0) + cov (L, p) x)%nat.
Proof. rewrite !below_cov, cov_app. reflexivity. Qed.

Lemma owners_ains_absent k v (m : amap N) a :
  aget k m = None -> owners (ains k v m) a = (cov (k, v) a + owners m a)%nat.
Proof.
  induction m as [|[k1 v1] t IH]; cbn [ains aget]; intros H.
  - rewrite owners_cons. reflexivity.
  - destruct (k <? k1). { rewrite owners_cons. reflexivity. }
    destruct (k =? k1) eqn:E; [discriminate|].
    rewrite !owners_cons, IH by exact H. lia.
Qed.

Lemma owners_arem k v (m : amap N) a :
  aget k m = Some v -> (owners (arem k m) a + cov (k, v) a = owners m a)%nat.
Proof.
  induction m as [|[k1 v1] t IH]; cbn [arem aget]; [discriminate|].
  destruct (k =? k1) eqn:E.
  - intros [= ->]. rewrite owners_cons. assert (k = k1) by lia. subst. lia.
  - intros H. rewrite !owners_cons. specialize (IH H). lia.
Qed.

Definition rext (m : rmeta) : ext := (r_start m, r_reserved m).
Definition oext (o : option rmeta) (a : N) : nat :=
  match o with Some m => cov (rext m) a | None => 0%nat end.

(* the old entry as `slot` reads it: None for an empty slot and for one past the end *)
Lemma owners_region_set (l : list (option rmeta)) n x a :
  (owners (region_exts (set_at l n x None)) a
     + oext (match nth_opt l n with Some (Some m) => Some m | _ => None end) a
   = owners (region_exts l) a + oext x a)%nat.
Proof.
  revert l. induction n as [|n IH]; intros [|h t]; cbn [set_at nth_opt].
  - destruct x; cbn [region_exts oext]; rewrite ?owners_cons, ?owners_nil; unfold rext; lia.
  - destruct x, h; cbn [region_exts oext]; rewrite ?owners_cons; unfold rext; lia.
  - cbn [region_exts]. specialize (IH []). destruct n; cbn [nth_opt] in IH; exact IH.
  - specialize (IH t). destruct h; cbn [region_exts]; rewrite ?owners_cons; lia.
Qed.

Lemma nth_opt_set_at {A} (l : list A) n x d k :
  nth_opt (set_at l n x d) k =
  if Nat.eqb k n then Some x
  else match nth_opt l k with Some y => Some y | None => if Nat.ltb k n then Some d else None end.
Proof.
  unfold Nat.ltb.
  revert l k. induction n as [|n IH]; intros [|h t] [|k]; cbn [set_at nth_opt Nat.eqb Nat.leb];
    rewrite ?IH; cbn [nth_opt]; try reflexivity.
  destruct (nth_opt t k); reflexivity.
Qed.

Lemma set_at_set_at {A} (l : list A) n x y d : set_at (set_at l n x d) n y d = set_at l n y d.
Proof.
  revert l. induction n as [|n IH]; intros [|h t]; cbn [set_at]; try reflexivity.
  - now rewrite IH.
  - now rewrite IH.
Qed.

Lemma get_set_at_other {A} (l : list (option A)) i x j :
  j <> i ->
  get (set_at l (N.to_nat i) x None) j = get l j \/ (get l j = None /\ get (set_at l (N.to_nat i) x None) j = Some None).
Proof.
  intros Hne. unfold get. rewrite nth_opt_set_at.
  destruct (Nat.eqb (N.to_nat j) (N.to_nat i)) eqn:E; [apply Nat.eqb_eq in E; lia|].
  destruct (nth_opt l (N.to_nat j)); [left; reflexivity|].
  destruct (Nat.ltb _ _); [right; split; reflexivity|left; reflexivity].
Qed.

Lemma get_set_at_same {A} (l : list A) i x d : get (set_at l (N.to_nat i) x d) i = Some x.
Proof. unfold get. rewrite nth_opt_set_at, Nat.eqb_refl. reflexivity. Qed.

Lemma nth_opt_repeat {A} (d : A) k n : nth_opt (repeat d k) n = if Nat.ltb n k then Some d else None.
Proof.
  revert n. induction k as [|k IH]; intros [|n]; cbn [repeat nth_opt]; try reflexivity.
  rewrite IH. reflexivity.
Qed.

Lemma get_pad {A} (l : list (option A)) k j :
  get (l ++ repeat None k) j = get l j \/ (get l j = None /\ get (l ++ repeat None k) j = Some None).
Proof.
  destruct (N.lt_ge_cases j (len l)) as [H|H]; [left; now apply get_app_l|].
  rewrite (get_none l j H), get_app_r by exact H. unfold get. rewrite nth_opt_repeat. destruct (Nat.ltb _ _); auto.
Qed.

Lemma in_region_exts l e : In e (region_exts l) <-> exists m, In (Some m) l /\ e = rext m.
Proof.
  induction l as [|[m0|] t IH]; cbn [region_exts In]; rewrite ?IH.
  - split; [intros []|intros (m & [] & _)].
  - split.
    + intros [<-|(m & H & E)]; [exists m0|exists m]; auto.
    + intros (m & [[= ->]|H] & E); [left; now rewrite E|right; eauto].
  - split; intros (m & H & E); exists m; [auto|]. destruct H as [[=]|H]; auto.
Qed.

Lemma slot_nth s i m : slot s i = Some m <-> nth_opt (slots s) (N.to_nat i) = Some (Some m).
Proof.
  unfold slot, get. destruct (nth_opt (slots s) (N.to_nat i)) as [[m'|]|]; split; congruence.
Qed.

Lemma slot_in_slots s i m : slot s i = Some m -> In (Some m) (slots s).
Proof. rewrite slot_nth. apply get_in. Qed.
Lemma in_slots_slot s m : In (Some m) (slots s) -> exists i, slot s i = Some m.
Proof.
  intros HI. apply In_nth_error in HI. destruct HI as [n Hn]. exists (N.of_nat n).
  apply slot_nth. now rewrite Nat2N.id, nth_opt_nth_error.
Qed.

Lemma slot_in_region_exts s i m : slot s i = Some m -> In (rext m) (region_exts (slots s)).
Proof. intros H. apply in_region_exts. exists m. split; [exact (slot_in_slots s i m H)|reflexivity]. Qed.

Lemma in_region_exts_slot s e :
  In e (region_exts (slots s)) -> exists i m, slot s i = Some m /\ e = rext m.
Proof.
  intros H. apply in_region_exts in H. destruct H as (m & H & E).
  destruct (in_slots_slot s m H) as [i Hi]. eauto.
Qed.

Lemma slot_put_slot s i x j : slot (put_slot s i x) j = if j =? i then x else slot s j.
Proof.
  unfold slot, put_slot, get, set_slots. cbn [slots]. rewrite nth_opt_set_at.
  destruct (j =? i) eqn:E.
  - assert (j = i) by lia. subst. rewrite Nat.eqb_refl. destruct x; reflexivity.
  - destruct (Nat.eqb (N.to_nat j) (N.to_nat i)) eqn:E2; [apply Nat.eqb_eq in E2; lia|].
    destruct (nth_opt (slots s) (N.to_nat j)) as [[m|]|]; try reflexivity.
    destruct (Nat.ltb (N.to_nat j) (N.to_nat i)); reflexivity.
Qed.

Lemma slot_slots s s' j : slots s' = slots s -> slot s' j = slot s j.
Proof. unfold slot. now intros ->. Qed.

Lemma slot_set_at s s' i x j :
  slots s' = set_at (slots s) (N.to_nat i) x None -> slot s' j = if j =? i then x else slot s j.
Proof. intros E. rewrite <- (slot_put_slot s i x j). now apply slot_slots. Qed.

Lemma slot_upd s i f j :
  slot (upd s i f) j = if j =? i then option_map f (slot s i) else slot s j.
Proof.
  unfold upd. destruct (slot s i) as [m|] eqn:E.
  - rewrite slot_put_slot. destruct (j =? i); reflexivity.
  - destruct (j =? i) eqn:E2; [|reflexivity]. assert (j = i) by lia. subst. rewrite E. reflexivity.
Qed.

Lemma mem_upd s i f : mem (upd s i f) = mem s.
Proof. unfold upd. destruct (slot s i); reflexivity. Qed.
Lemma held_upd s i f : held (upd s i f) = held s.
Proof. unfold upd. destruct (slot s i); reflexivity. Qed.

Lemma slot_set_rfile s v j : slot (set_rfile s v) j = slot s j. Proof. reflexivity. Qed.
Lemma slot_set_pend s v j : slot (set_pend s v) j = slot s j. Proof. reflexivity. Qed.
Lemma slot_set_s2r s v j : slot (set_s2r s v) j = slot s j. Proof. reflexivity. Qed.
Lemma slot_set_holes s v w j : slot (set_holes s v w) j = slot s j. Proof. reflexivity. Qed.
Lemma slot_set_mem s v j : slot (set_mem s v) j = slot s j. Proof. reflexivity. Qed.
Lemma slot_set_held s v j : slot (set_held s v) j = slot s j. Proof. reflexivity. Qed.
Lemma slot_set_file_len s v j : slot (set_file_len s v) j = slot s j. Proof. reflexivity. Qed.

Lemma find_id_from_some l id i0 j :
  find_id_from l id i0 = Some j ->
  exists m, nth_opt l (N.to_nat (j - i0)) = Some (Some m) /\ r_id m = id /\ i0 <= j.
Proof.
  revert i0. induction l as [|o t IH]; intros i0; cbn [find_id_from]; [discriminate|].
  assert (Hrec : find_id_from t id (i0 + 1) = Some j ->
            exists m, nth_opt (o :: t) (N.to_nat (j - i0)) = Some (Some m) /\ r_id m = id /\ i0 <= j).
  { intros H. destruct (IH _ H) as (m' & Hn & Hid & Hle). exists m'.
    replace (N.to_nat (j - i0)) with (S (N.to_nat (j - (i0 + 1)))) by lia. cbn [nth_opt]. split; [assumption|lia]. }
  destruct o as [m|]; [|exact Hrec]. destruct (N.eqb_spec (r_id m) id) as [E|_]; [|exact Hrec].
  intros [= <-]. exists m. replace (N.to_nat (i0 - i0)) with O by lia. cbn. split; [reflexivity|lia].
Qed.

Lemma find_id_some s id i : find_id s id = Some i -> exists m, slot s i = Some m /\ r_id m = id.
Proof.
  unfold find_id. intros H. apply find_id_from_some in H. destruct H as (m & Hn & Hid & _).
  rewrite N.sub_0_r in Hn. exists m. now rewrite slot_nth.
Qed.

Lemma find_id_from_none l id i0 n m :
  find_id_from l id i0 = None -> nth_opt l n = Some (Some m) -> r_id m <> id.
Proof.
  revert i0 n. induction l as [|[m0|] t IH]; intros i0 n; cbn [find_id_from].
  - destruct n; discriminate.
  - destruct (r_id m0 =? id) eqn:E; [discriminate|]. intros H. destruct n; cbn [nth_opt].
    + intros [= <-]. lia.
    + eauto.
  - intros H. destruct n; cbn [nth_opt]; [discriminate|]. eauto.
Qed.

Lemma find_id_none s id i m : find_id s id = None -> slot s i = Some m -> r_id m <> id.
Proof.
  unfold find_id. rewrite slot_nth. apply find_id_from_none.
Qed.

Lemma owners_extents s a :
  owners (extents s) a =
  (owners (region_exts (slots s)) a + owners (holes s) a + owners (pend s) a + owners (resv s) a)%nat.
Proof. unfold extents. rewrite !owners_app. lia. Qed.

Lemma in_extents s e :
  In e (extents s) <-> In e (region_exts (slots s)) \/ In e (holes s) \/ In e (pend s) \/ In e (resv s).
Proof. unfold extents. rewrite !in_app_iff. tauto. Qed.
