(* What a successful write_with does to the state and which events it emits, in the form `WObs`, for
   the two ways it rewrites the slot of the region: growth in place (the tail finish_write) and
   relocation. *)
From Anydb Require Import Common.Base Gen.Consts Rawdb.Alloc Rawdb.AllocInv
  Rawdb.AMapFacts Rawdb.AllocErr Rawdb.InvLayout
  Rawdb.Crash Rawdb.CrashInv Rawdb.AllocEvents
  Rawdb.AllocDisciplined Rawdb.AllocDisciplinedOps.

Definition WObs (s : st) (i : N) (mi : rmeta) (s' : st) (evs : list cev) : Prop :=
  exists datas newrec, evs = meta_body s s' datas i newrec /\ MS s s' [r_id mi] datas i newrec.

Lemma rf_set_mem s mm j : rf (set_mem s mm) j = rf s j. Proof. reflexivity. Qed.

Lemma m_set_reserved_same m : m_set_reserved m (r_reserved m) = m.
Proof. unfold m_set_reserved. now rewrite N.eqb_refl. Qed.

(* the reserve of slot i raised to nr (nr = r_reserved m: no growth) over a state sA that differs
   from s in holes and file length at most, then the common tail; sE is the state the events are
   read off *)
Lemma grow_wobs s sA sE i m nr mm wo f n nl :
  Inv s -> slot s i = Some m -> slot sE i = Some (m_set_reserved m nr) -> r_reserved m <= nr ->
  slots sA = slots s -> rfile sA = rfile s -> pend sA = pend s -> file_len s <= file_len sA ->
  r_len m <> nl -> wo + n <= nl -> (n = 0 -> nl <= r_len m) ->
  WObs s i m (wput (set_mem sA mm) i (m_set_len (m_mark_dirty (m_set_reserved m nr) wo n) nl))
       (len_ev s sA ++ finish_events sE i (r_start m) wo f n nl).
Proof.
  intros HI Hs HsE Hnr Esl Erf Ep Hfl Hne Hwn Hn0. apply N.eqb_neq in Hne.
  assert (Ex : m_set_len (m_mark_dirty (m_set_reserved m nr) wo n) nl
               = mkR (r_start m) nl nr (r_id m) ST_WRITE (N.min (r_dmin m) wo) (N.max (r_dmax m) (wo + n))).
  { rewrite m_set_len_eq, m_set_reserved_eq. cbn [m_mark_dirty r_start r_len r_reserved r_id r_state r_dmin r_dmax].
    now rewrite Hne. }
  eexists [(r_start m + wo, n, wcontent (r_start m + wo) f)], (Some (Some (srec _))). split.
  - rewrite wput_body. unfold finish_events. rewrite upd_upd, (meta_ev_upd sE i _ _ HsE); [reflexivity|now rewrite Ex].
  - apply (MS_wput s (set_mem sA mm) i m); rewrite ?Ex; unfold m_is_dirty;
      cbn [r_state r_start r_reserved r_len r_dmin r_dmax]; auto.
    + apply mem_in_head.
    + intros p z. change (pend (set_mem sA mm)) with (pend sA). now rewrite Ep.
    + intros off len g [[= <- <- <-]|[]] Hnz. lia.
    + intros Hd. right. lia.
Qed.

(* opens like AllocOutcome.relocate_cases and does not go through it: the CSetLen event needs the new
   file length (place_events), of which relocate_cases keeps the bound file_len s <= fl only *)
Lemma reloc_wobs s i m f n wo nl nr cl s' r :
  Inv s -> slot s i = Some m -> r_reserved m < nr -> nr mod PAGE_SIZE = 0 ->
  wo + n <= nl -> cl <= nl -> cl <= r_reserved m ->
  relocate s i m f n wo nl nr cl = AOk (s', r) ->
  WObs s i m s' (relocate_events s i m f n wo nl nr cl).
Proof.
  intros HI Hs Hnr Hmod Hwn Hcl Hcr. rewrite (relocate_eq _ _ _ _ _ _ _ _ _ (inv_no_resv s HI)). unfold relocate_events.
  destruct (carve_at s nr HI ltac:(lia) Hmod) as (H & Q & fl & ns & L' & Ep & Hc & Hfl & _). clear Hmod.
  pose proof (carved_zone s _ ns nr L' HI Hc i m Hs) as Hzone. clear Hc.
  rewrite Ep, (place_events _ _ _ _ Ep). cbn [abind]. unfold relaid.
  rewrite reloc_tail_eq; [|exact (inv_s2r_ok s HI)|exact Hs|lia].
  destruct (_ && _); [|discriminate]. intros [= <- _]. erewrite wid_upd_wput by exact Hs.
  assert (Ex : reloc_meta ns nr nl m = mkR ns nl nr (r_id m) ST_WRITE (N.min (r_dmin m) 0) (N.max (r_dmax m) (0 + nl))).
  { unfold reloc_meta. rewrite m_set_len_eq, m_set_reserved_eq, m_set_start_eq.
    cbn [m_mark_dirty r_start r_len r_reserved r_id r_state r_dmin r_dmax].
    replace (r_reserved m =? nr) with false by lia. now destruct (r_len m =? nl). }
  rewrite Ex.
  eexists ((if cl =? 0 then [] else [(ns, cl, fun a => mem s (a - ns + r_start m))]) ++ [(ns + wo, n, wcontent (ns + wo) f)]),
         (Some (Some (srec _))).
  split; [rewrite wput_body, map_app; now destruct (cl =? 0)|].
  apply (MS_wput s _ i m); unfold m_is_dirty; cbn [r_state r_start r_reserved r_len r_dmin r_dmax]; auto.
  - apply mem_in_head.
  - intros p z. apply (pend_moved s i m p z HI Hs).
  - intros _. right. apply in_ains_same.
  - intros off len g Hin Hnz. apply in_app_or in Hin. destruct Hin as [Hin|[[= <- <- <-]|[]]]; [|lia].
    destruct (cl =? 0); [destruct Hin|]. destruct Hin as [[= <- <- <-]|[]]. lia.
  - intros Hd. lia.
Qed.
