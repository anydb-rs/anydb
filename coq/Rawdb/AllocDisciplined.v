(* Tie between the allocator model and the crash monitor: the coupling between an allocator state
   and a monitor state (CplIn ids while an operation naming `ids` is in progress, Cpl = CplIn []
   between operations).  What a list of events does is said as `triple P evs Q`: from every monitor
   state satisfying P (and K) it is accepted, ends in a state satisfying Q, and its punches are issued
   while no ids are current; triples compose (`triple_app`).  An operation is a bracket COp ids; body;
   CEnd (`bracket_sound`); flush, compact and a Region::flush that synced close with CFlushed /
   CRegionFlushed instead (AllocDisciplinedSync.v).  `MS` ("metadata step") says what a body may
   do that rewrites at most one slot of the regions file and performs no sync (create, write family,
   truncate, rename, remove, set_min_len, drop of a handle, refused requests): `ms_body`, and
   `ms_sound` for the whole bracket.  The coupling says nothing about bytes: no clause relates
   m_vmem / m_dmem to Alloc.mem, and no proof here looks at the content argument of a CData event. *)
From Anydb Require Import Common.Base Rawdb.Alloc Rawdb.AllocInv
  Rawdb.AMapFacts Rawdb.InvLayout Rawdb.InvFacts Rawdb.InvReopen
  Rawdb.Crash Rawdb.CrashFacts Rawdb.CrashInv Rawdb.CrashLibDefs.

(* the volatile content of slot i of the regions file (AllocSpec.rfile_has s i: whether there is one) *)
Definition rf (s : st) (i : N) : option slotrec :=
  match get (rfile s) i with Some (Some v) => Some v | _ => None end.
Definition in_pend (s : st) (a : N) : Prop := exists p z, In (p, z) (pend s) /\ p <= a < p + z.
(* a lies in the extent of the region at slot j whose metadata has been written at least once *)
Definition in_own (s : st) (j a : N) : Prop :=
  exists mj, slot s j = Some mj /\ r_state mj <> ST_WRITE /\ r_start mj <= a < r_start mj + r_reserved mj.

Lemma region_pend_point s i m a :
  Inv s -> slot s i = Some m -> in_pend s a -> r_start m <= a < r_start m + r_reserved m -> False.
Proof.
  intros H Hs (p & z & Hin & Hr) Ha. apply (in_aget _ _ _ (inv_sorted_pend s H)) in Hin.
  destruct (region_pend_disjoint s i m p z H Hs Hin); lia.
Qed.

Lemma rf_mirror s i :
  Inv s ->
  match slot s i with
  | Some m => if r_state m =? ST_WRITE then rf s i = None /\ r_len m = 0 /\ m_is_dirty m = false
              else rf s i = Some (srec m)
  | None => rf s i = None
  end.
Proof.
  intros H. pose proof (inv_rfile s H i) as R. unfold rf. destruct (slot s i) as [m|].
  - destruct (r_state m =? ST_WRITE).
    + destruct R as (-> & R2 & R3). split; [reflexivity|split; [exact R2|unfold m_is_dirty; lia]].
    + rewrite R. reflexivity.
  - destruct R as [-> | ->]; reflexivity.
Qed.

Lemma rf_some_slot s i v :
  Inv s -> rf s i = Some v -> exists m, slot s i = Some m /\ r_state m <> ST_WRITE /\ srec m = v.
Proof.
  intros H E. pose proof (rf_mirror s i H) as R. destruct (slot s i) as [m|]; [|congruence].
  destruct (r_state m =? ST_WRITE) eqn:Es.
  - destruct R as (R & _). congruence.
  - exists m. split; [reflexivity|]. split; [lia|congruence].
Qed.

(* why a write of slot i may stand in m_pend: flush() is bound to sync the regions file, because the
   region there is in state NEEDS_FLUSH, or because zeros were written over a removed one and the
   allocator still has pending holes (`pend s`: the other thing called pending here) *)
Definition mpend_src (s : st) (i : N) : Prop :=
  (exists mi, slot s i = Some mi /\ r_state mi = ST_FLUSH) \/ (rf s i = None /\ pend s <> []).
(* M2: a slot of the last completed flush whose region nobody addressed since is still what the
   regions file holds *)
Definition fl_ok (s : st) (m : mon) : Prop :=
  match m_flushed m with
  | Some (fl, _) => forall i w, assoc_get i fl = Some w -> mem_in (sr_id w) (m_touched m) = false -> rf s i = Some w
  | None => True
  end.
(* M6: the data ranges not yet synced miss the content of every region that is not dirty *)
Definition pdata_ok (s : st) (m : mon) : Prop :=
  forall off len f j mj, In (off, len, f) (m_pdata m) -> slot s j = Some mj -> m_is_dirty mj = false ->
    disjoint off len (r_start mj) (r_len mj) = true.

(* A clause is proved at: cpl_init (AllocDisciplinedAll.v: the start), op_open / op_close / cpl_set_held
   (COp, CEnd, a change of handles), cpl_final (the body of every operation of shape MS, the removals of
   retain included); in AllocDisciplinedSync.v (flush, compact, Region::flush) cpl_datasync, cpl_metasync,
   settled_punch, settled_flushed, and settled_restate for the state after the operation. *)
Record CplIn (cur : list N) (s : st) (m : mon) : Prop := mkCpl {
  c_len : m_len m = file_len s;
  c_cur : m_cur m = cur;
  (* the volatile version of a slot (its last pending write, else the durable one) is what the
     regions file of the model holds *)
  c_vol : forall i, latest_of m i = rf s i;
  (* K2/K3: every possibly-durable version lies inside its own live region or in pending holes *)
  c_geo : forall j w a, In (Some w) (possible m j) -> sr_start w <= a < sr_start w + sr_reserved w ->
            in_own s j a \/ in_pend s a;
  c_fl : fl_ok s m;
  c_mpend : forall i v, In (i, v) (m_pend m) -> mpend_src s i;
  c_pdata : pdata_ok s m
}.
Arguments c_len {cur s m}. Arguments c_cur {cur s m}. Arguments c_vol {cur s m}. Arguments c_geo {cur s m}.
Arguments c_fl {cur s m}. Arguments c_mpend {cur s m}. Arguments c_pdata {cur s m}.

Definition Cpl : st -> mon -> Prop := CplIn [].

(* every punch among evs, run from m, is issued while no operation ids are current (C12) *)
Fixpoint idle_punches (m : mon) (evs : list cev) : Prop :=
  match evs with
  | [] => True
  | e :: t => match e with CPunch _ _ => m_cur m = [] | _ => True end /\ idle_punches (fst (mon_step m e)) t
  end.

Lemma idle_app a : forall m b,
  snd (mon_run m a) = true -> idle_punches m a -> idle_punches (fst (mon_run m a)) b -> idle_punches m (a ++ b).
Proof.
  induction a as [|e a IH]; intros m b Hok Ha Hb; [exact Hb|].
  rewrite mon_run_cons in Hok, Hb. destruct (snd (mon_step m e)); [|discriminate].
  split; [exact (proj1 Ha)|exact (IH _ b Hok (proj2 Ha) Hb)].
Qed.

Lemma idle_split t1 : forall m off len t2,
  snd (mon_run m t1) = true -> idle_punches m (t1 ++ CPunch off len :: t2) -> m_cur (fst (mon_run m t1)) = [].
Proof.
  induction t1 as [|e t1 IH]; intros m off len t2 Hok H; [exact (proj1 H)|].
  rewrite mon_run_cons in *. destruct (snd (mon_step m e)); [|discriminate]. exact (IH _ off len t2 Hok (proj2 H)).
Qed.

Definition no_punch (evs : list cev) : bool :=
  forallb (fun e => match e with CPunch _ _ => false | _ => true end) evs.

Lemma idle_no_punch evs : forall m, no_punch evs = true -> idle_punches m evs.
Proof.
  induction evs as [|e t IH]; intros m H; [exact I|]. apply andb_true_iff in H.
  split; [now destruct e|exact (IH _ (proj2 H))].
Qed.

(* from every monitor state that satisfies P the events are accepted, lead to one that satisfies Q, and
   punch only while no ids are current *)
Definition triple (P : mon -> Prop) (evs : list cev) (Q : mon -> Prop) : Prop :=
  forall m, K m -> P m -> snd (mon_run m evs) = true /\ Q (fst (mon_run m evs)) /\ idle_punches m evs.

Lemma triple_nil P : triple P [] P.
Proof. intros m _ H. now repeat split. Qed.

Lemma triple_app P Q R a b : triple P a Q -> triple Q b R -> triple P (a ++ b) R.
Proof.
  intros Ha Hb m HK HP. destruct (Ha m HK HP) as (Hok & HQ & Hia).
  destruct (Hb _ (K_run a m HK Hok) HQ) as (Hok' & HR & Hib). rewrite mon_run_app_eq, Hok.
  split; [exact Hok'|]. split; [exact HR|exact (idle_app a m b Hok Hia Hib)].
Qed.

Lemma triple_one (P Q : mon -> Prop) e :
  no_punch [e] = true ->
  (forall m, K m -> P m -> snd (mon_step m e) = true /\ Q (fst (mon_step m e))) -> triple P [e] Q.
Proof.
  intros He H m HK HP. rewrite mon_run_one. destruct (H m HK HP) as [Hok HQ].
  split; [exact Hok|]. split; [exact HQ|exact (idle_no_punch [e] m He)].
Qed.

Lemma triple_post (P Q Q' : mon -> Prop) evs : triple P evs Q -> (forall m, Q m -> Q' m) -> triple P evs Q'.
Proof. intros H HQ m HK HP. destruct (H m HK HP) as (Hok & Hq & Hi). split; [exact Hok|]. split; [exact (HQ _ Hq)|exact Hi]. Qed.

Lemma op_open ids s : triple (Cpl s) [COp ids] (CplIn ids s).
Proof.
  apply triple_one; [reflexivity|]. intros m _ [H1 H2 H3 H4 H5 H6 H7]. split; [reflexivity|].
  constructor; try assumption; [reflexivity|].
  unfold fl_ok in *. cbn [mon_step fst m_flushed m_touched]. destruct (m_flushed m) as [[fl fmem]|]; [|exact I].
  intros i w Hg Ht. rewrite mem_in_app in Ht. apply orb_false_iff in Ht. apply H5; tauto.
Qed.

Lemma op_close ids s : triple (CplIn ids s) [CEnd] (Cpl s).
Proof.
  apply triple_one; [reflexivity|]. intros m _ [H1 H2 H3 H4 H5 H6 H7]. split; [reflexivity|].
  constructor; try assumption. reflexivity.
Qed.

Lemma bracket_sound ids body s s' :
  triple (CplIn ids s) body (CplIn ids s') -> triple (Cpl s) (COp ids :: body ++ [CEnd]) (Cpl s').
Proof.
  intros Hb. exact (triple_app _ _ _ [COp ids] _ (op_open ids s) (triple_app _ _ _ body _ Hb (op_close ids s'))).
Qed.

Lemma cpl_set_held cur s h m : CplIn cur s m -> CplIn cur (set_held s h) m.
Proof. intros [H1 H2 H3 H4 H5 H6 H7]. constructor; assumption. Qed.

(* M2 inside an operation that names the id of every version it replaces: the current ids count
   as touched (Kcur) *)
Lemma untouched_in_op s m i :
  fl_ok s m -> Kcur m -> (forall v, rf s i = Some v -> mem_in (sr_id v) (m_cur m) = true) -> untouched_slot_ok m i = true.
Proof.
  unfold fl_ok, untouched_slot_ok. intros Hfl Hc Hid. destruct (m_flushed m) as [[fl fmem]|]; [|reflexivity].
  destruct (assoc_get i fl) as [w|] eqn:Eg; [|reflexivity].
  destruct (mem_in (sr_id w) (m_touched m)) eqn:Et; [reflexivity|].
  rewrite (Hc _ (Hid w (Hfl i w Eg Et))) in Et. discriminate.
Qed.

Lemma fl_ok_in_op s s' m :
  fl_ok s m -> (forall k v, rf s k = Some v -> mem_in (sr_id v) (m_touched m) = false -> rf s' k = Some v) -> fl_ok s' m.
Proof.
  unfold fl_ok. intros Hfl Hkeep. destruct (m_flushed m) as [[fl fmem]|]; [|exact I].
  intros k w Hg Ht. exact (Hkeep k w (Hfl k w Hg Ht) Ht).
Qed.

Lemma mon_run_app_full m t1 t2 :
  snd (mon_run m t1) = true -> mon_run m (t1 ++ t2) = mon_run (fst (mon_run m t1)) t2.
Proof. intros H. rewrite mon_run_app_eq, H. reflexivity. Qed.

Definition data_ev (d : N * N * content) : cev := let '(off, len, f) := d in CData off len f.

(* the monitor while the body of an operation runs: data events change the pending data ranges
   and the volatile bytes; what M1-M4 look at is that of m, so each check of the body is decided
   once, on m (`body_data_ok`, `body_untouched`, `body_meta_ok` below) *)
Definition with_data (m : mon) (pd : list (N * N * content)) (vm : content) (ln : N) : mon :=
  mkMon (m_dur m) (m_pend m) pd (m_dmem m) vm ln (m_cur m) (m_flushed m) (m_touched m).

Lemma with_data_same m : with_data m (m_pdata m) (m_vmem m) (m_len m) = m.
Proof. destruct m; reflexivity. Qed.

(* the second conjunct is for c_pdata in cpl_final *)
Lemma run_datas datas : forall m pd vm ln rest,
  (forall off len f, In (off, len, f) datas -> len <> 0 -> data_ok m off len = true /\ off + len <= ln) ->
  exists pd' vm', mon_run (with_data m pd vm ln) (map data_ev datas ++ rest) = mon_run (with_data m pd' vm' ln) rest
    /\ forall x, In x pd' -> In x pd \/ (In x datas /\ snd (fst x) <> 0).
Proof.
  induction datas as [|[[off len] f] t IH]; intros m pd vm ln rest H.
  - exists pd, vm. split; [reflexivity|auto].
  - cbn [map app data_ev]. rewrite mon_run_cons. cbn [mon_step with_data m_len m_pdata m_vmem].
    assert (Ht : forall o l g, In (o, l, g) t -> l <> 0 -> data_ok m o l = true /\ o + l <= ln)
      by (intros o l g Hin; apply (H o l g); right; exact Hin).
    destruct (N.eqb_spec len 0) as [E0|E0]; cbn [fst snd].
    + destruct (IH m pd vm ln rest Ht) as (pd' & vm' & R & Hs). exists pd', vm'. split; [exact R|].
      intros x Hx. destruct (Hs x Hx) as [Hy|[Hy Hz]]; [left; exact Hy|right; split; [right; exact Hy|exact Hz]].
    + destruct (H off len f (or_introl eq_refl) E0) as [Hd Hb]. change (data_ok _ off len) with (data_ok m off len).
      rewrite Hd. replace (off + len <=? ln) with true by lia. cbn [andb].
      destruct (IH m (pd ++ [(off, len, f)]) (write_mem vm off len f) ln rest Ht) as (pd' & vm' & R & Hs).
      exists pd', vm'. split; [exact R|]. intros x Hx. destruct (Hs x Hx) as [Hy|[Hy Hz]].
      * apply in_app_or in Hy. destruct Hy as [Hy|[<-|[]]]; [left; exact Hy|]. right. split; [left; reflexivity|exact E0].
      * right. split; [right; exact Hy|exact Hz].
Qed.

(* the events between COp and CEnd of an operation that rewrites one slot at most and does not
   sync: the data file grows first.  (AllocEvents.setlen_ev s n is len_ev s (set_min_len s n), by
   computation.) *)
Definition len_ev (s s' : st) : list cev := if file_len s' =? file_len s then [] else [CSetLen (file_len s')].

Definition meta_body (s s' : st) (datas : list (N * N * content)) (i : N)
  (newrec : option (option slotrec)) : list cev :=
  len_ev s s' ++ map data_ev datas ++ (match newrec with Some v => [CMeta i v] | None => [] end).

Definition meta_step_events (ids : list N) (s s' : st) (datas : list (N * N * content)) (i : N)
  (newrec : option (option slotrec)) : list cev :=
  COp ids :: meta_body s s' datas i newrec ++ [CEnd].

Record MS (s s' : st) (ids : list N) (datas : list (N * N * content)) (i : N)
  (newrec : option (option slotrec)) : Prop := mkMS {
  ms_len : file_len s <= file_len s';
  (* every other slot keeps its entry in the table and in the regions file *)
  ms_frame : forall j, j <> i -> slot s' j = slot s j /\ rf s' j = rf s j;
  ms_pend : forall p z, In (p, z) (pend s) -> In (p, z) (pend s');
  (* c_geo for the versions of slot i that may be on disk: the extent a written region had at
     slot i stays inside the region now there or joins the pending holes *)
  ms_old : forall mi a, slot s i = Some mi -> r_state mi <> ST_WRITE ->
             r_start mi <= a < r_start mi + r_reserved mi -> in_own s' i a \/ in_pend s' a;
  (* M2 and M3: the operation names the region whose metadata the regions file holds at slot i *)
  ms_id : forall v, rf s i = Some v -> mem_in (sr_id v) ids = true;
  (* M3 and c_pdata: a data range lies in the content of the region now at slot i, which is left dirty *)
  ms_datas : forall off len f, In (off, len, f) datas -> len <> 0 ->
               exists mi', slot s' i = Some mi' /\ r_start mi' <= off /\ off + len <= r_start mi' + r_len mi'
                           /\ m_is_dirty mi' = true;
  (* c_pdata for the ranges pending before: a region left clean at slot i is empty, or was clean
     before, at the same start and no shorter *)
  ms_nd : forall mi', slot s' i = Some mi' -> m_is_dirty mi' = false ->
            r_len mi' = 0 \/ exists mi, slot s i = Some mi /\ m_is_dirty mi = false
                                       /\ r_start mi' = r_start mi /\ r_len mi' <= r_len mi;
  (* c_vol, c_geo, mpend_src.  No metadata write: the regions file keeps slot i and a region in state
     NEEDS_FLUSH stays so; a write of v: the regions file holds v, the metadata of the region now at
     slot i, left in state NEEDS_FLUSH, or zeros, and then a pending hole is left *)
  ms_new : match newrec with
           | None => rf s' i = rf s i
                     /\ (forall mi, slot s i = Some mi -> r_state mi = ST_FLUSH ->
                           exists mi', slot s' i = Some mi' /\ r_state mi' = ST_FLUSH)
           | Some v => rf s' i = v
                       /\ match v with
                          | Some w => exists mi', slot s' i = Some mi' /\ r_state mi' = ST_FLUSH /\ srec mi' = w
                          | None => pend s' <> []
                          end
           end
}.
Arguments ms_len {s s' ids datas i newrec}. Arguments ms_frame {s s' ids datas i newrec}.
Arguments ms_pend {s s' ids datas i newrec}. Arguments ms_old {s s' ids datas i newrec}.
Arguments ms_id {s s' ids datas i newrec}. Arguments ms_datas {s s' ids datas i newrec}.
Arguments ms_nd {s s' ids datas i newrec}. Arguments ms_new {s s' ids datas i newrec}.

Section MetaStep.
  Variables (s s' : st) (ids : list N) (datas : list (N * N * content)) (i : N)
            (newrec : option (option slotrec)) (m : mon).
  Hypotheses (HI : Inv s) (HI' : Inv s') (HK : K m) (HC : CplIn ids s m) (HM : MS s s' ids datas i newrec).

  Lemma in_pend_mono a : in_pend s a -> in_pend s' a.
  Proof. intros (p & z & Hin & Hr). exists p, z. split; [apply (ms_pend HM); exact Hin|exact Hr]. Qed.

  Lemma pend_ne : pend s <> [] -> pend s' <> [].
  Proof.
    pose proof (ms_pend HM) as H. destruct (pend s) as [|[p z] t]; [congruence|]. intros _ E'.
    specialize (H p z (or_introl eq_refl)). rewrite E' in H. destruct H.
  Qed.

  Lemma ids_touched v : rf s i = Some v -> mem_in (sr_id v) (m_touched m) = true.
  Proof. intros Hv. apply (k_cur m HK). rewrite (c_cur HC). exact (ms_id HM v Hv). Qed.

  Lemma geo_clear j w a mi' :
    In (Some w) (possible m j) -> sr_start w <= a < sr_start w + sr_reserved w ->
    slot s' i = Some mi' -> r_start mi' <= a < r_start mi' + r_reserved mi' ->
    j = i /\ exists v, rf s i = Some v.
  Proof.
    intros Hw Ha Hs' Ha'. destruct (c_geo HC j w a Hw Ha) as [(mj & Hj & Hst & Hr)|Hp].
    - destruct (N.eq_dec j i) as [->|Hne].
      + split; [reflexivity|]. pose proof (rf_mirror s i HI) as R. rewrite Hj in R.
        destruct (r_state mj =? ST_WRITE) eqn:E; [lia|]. eexists. exact R.
      + exfalso. destruct (ms_frame HM j Hne) as [Hf _]. rewrite <- Hf in Hj.
        destruct (region_region_disjoint s' j i mj mi' HI' Hne Hj Hs'); lia.
    - exfalso. exact (region_pend_point s' i mi' a HI' Hs' (in_pend_mono a Hp) Ha').
  Qed.

  (* M3 *)
  Lemma body_data_ok off len f :
    In (off, len, f) datas -> len <> 0 -> data_ok m off len = true /\ off + len <= file_len s'.
  Proof.
    intros Hin Hne.
    destruct (ms_datas HM off len f Hin Hne) as (mi' & Hs' & Hlo & Hhi & _).
    pose proof (inv_region_len s' i mi' HI' Hs') as Hlr. pose proof (region_end_file s' i mi' HI' Hs') as Hend.
    split; [|lia]. apply data_ok_intro. intros j.
    (* only a written slot i has versions inside the region: then its id is current *)
    assert (Hfree : (j = i -> rf s i = None) ->
              forall w, In (Some w) (possible m j) -> disjoint off len (sr_start w) (sr_len w) = true).
    { intros Hji w Hw. apply disjoint_of_points. intros a Ha1 Ha2.
      pose proof (valid_len_le w (proj1 (k_inside m HK j w Hw))) as Hlw.
      destruct (geo_clear j w a mi' Hw) as (E & v & Ev); [lia|exact Hs'|lia|]. rewrite (Hji E) in Ev. discriminate. }
    destruct (N.eq_dec j i) as [->|Hne']; [|right; apply Hfree; intros E; destruct (Hne' E)].
    destruct (rf s i) as [v|] eqn:Erf; [left|right; apply Hfree; reflexivity].
    unfold slot_addressed. apply existsb_exists. exists (Some v). split.
    - rewrite <- Erf, <- (c_vol HC). apply latest_in_possible.
    - rewrite (c_cur HC). apply (ms_id HM). exact Erf.
  Qed.

  (* M2 *)
  Lemma body_untouched : untouched_slot_ok m i = true.
  Proof. apply (untouched_in_op s m i (c_fl HC) (k_cur m HK)). rewrite (c_cur HC). exact (ms_id HM). Qed.

  (* M1 *)
  Lemma body_meta_ok v pd vm :
    newrec = Some v ->
    match v with Some w => meta_ok (with_data m pd vm (file_len s')) i w | None => true end = true.
  Proof.
    intros En. destruct v as [w|]; [|reflexivity].
    pose proof (ms_new HM) as Hnew. rewrite En in Hnew. destruct Hnew as (_ & mi' & Hs' & _ & <-). unfold meta_ok.
    pose proof (region_end_file s' i mi' HI' Hs') as Hend.
    rewrite (inv_valid_slotrec s' i mi' HI' Hs'). cbn [andb with_data m_len].
    replace (sr_start (srec mi') + sr_reserved (srec mi') <=? file_len s') with true
      by (unfold srec, sr_start, sr_reserved; lia).
    cbn [andb]. apply forallb_forall. intros j Hj. apply orb_true_iff.
    destruct (N.eq_dec j i) as [->|Hne]; [left; lia|right].
    apply forallb_forall. intros [w|] Hw; [|reflexivity].
    apply disjoint_of_points. unfold srec, sr_start, sr_reserved at 1. intros a Ha1 Ha2.
    destruct (geo_clear j w a mi' Hw Ha2 Hs' Ha1) as (E & _). congruence.
  Qed.

  (* each clause comes from the field of MS made for it (comments there), slot i apart from the others *)
  Lemma cpl_final pd vm :
    (forall x, In x pd -> In x (m_pdata m) \/ (In x datas /\ snd (fst x) <> 0)) ->
    CplIn ids s' (mkMon (m_dur m) (m_pend m ++ (match newrec with Some v => [(i, v)] | None => [] end)) pd
                        (m_dmem m) vm (file_len s') (m_cur m) (m_flushed m) (m_touched m)).
  Proof.
    intros F7. set (mF := mkMon _ _ _ _ _ _ _ _ _).
    assert (Hposs : forall j, possible mF j =
              possible m j ++ pend_of (match newrec with Some v => [(i, v)] | None => [] end) j).
    { intros j. rewrite !possible_eq. unfold mF. cbn [m_dur m_pend]. rewrite pend_of_app. reflexivity. }
    assert (Hposs_ne : forall j, j <> i -> possible mF j = possible m j).
    { intros j Hne. rewrite Hposs. destruct newrec as [v|]; [|apply app_nil_r].
      rewrite pend_of_one. destruct (i =? j) eqn:E; [lia|apply app_nil_r]. }
    pose proof (ms_new HM) as Hnew.
    constructor.
    - reflexivity.
    - exact (c_cur HC).
    - intros j. unfold latest_of. destruct (N.eq_dec j i) as [->|Hne].
      + rewrite Hposs. destruct newrec as [v|].
        * rewrite pend_of_one, N.eqb_refl, last_last. symmetry. apply Hnew.
        * cbn [pend_of filter map]. rewrite app_nil_r. destruct Hnew as [-> _]. apply (c_vol HC).
      + rewrite (Hposs_ne j Hne). destruct (ms_frame HM j Hne) as [_ ->]. apply (c_vol HC).
    - intros j w a Hw Ha.
      assert (Hold : In (Some w) (possible m j) -> in_own s' j a \/ in_pend s' a).
      { intros Hw'. destruct (c_geo HC j w a Hw' Ha) as [(mj & Hj & Hst & Hr)|Hp]; [|right; apply in_pend_mono; exact Hp].
        destruct (N.eq_dec j i) as [->|Hne].
        - apply (ms_old HM mj a Hj Hst Hr).
        - left. exists mj. destruct (ms_frame HM j Hne) as [-> _]. auto. }
      rewrite Hposs in Hw. apply in_app_or in Hw. destruct Hw as [Hw|Hw]; [apply Hold; exact Hw|].
      destruct newrec as [v|]; [|destruct Hw]. rewrite pend_of_one in Hw.
      destruct (i =? j) eqn:E; [|destruct Hw]. destruct Hw as [Hw|[]]. subst v. assert (j = i) by lia. subst j.
      destruct Hnew as (_ & mi' & Hs' & Hst & Hrec). left. exists mi'. split; [exact Hs'|].
      split; [rewrite Hst; discriminate|]. rewrite <- Hrec in Ha. exact Ha.
    - apply (fl_ok_in_op s s' m (c_fl HC)). intros k w Hrf Hnt.
      destruct (N.eq_dec k i) as [->|Hne]; [rewrite (ids_touched w Hrf) in Hnt; discriminate|].
      destruct (ms_frame HM k Hne) as [_ ->]. exact Hrf.
    - intros k x Hx. unfold mF in Hx. cbn [m_pend] in Hx. pose proof pend_ne as Hpne.
      assert (Hslot_i : mpend_src s i \/ newrec <> None -> mpend_src s' i).
      { intros Hc. destruct newrec as [[v|]|].
        - left. destruct Hnew as (_ & mi' & Hs' & Hst & _). eauto.
        - right. exact Hnew.
        - destruct Hnew as [Erf Hfl]. destruct Hc as [[(mi & Hs & Hst)|[Hn Hp]]|Hc]; [left; eauto| |congruence].
          right. split; [congruence|apply Hpne; exact Hp]. }
      apply in_app_or in Hx. destruct Hx as [Hx|Hx].
      + pose proof (c_mpend HC k x Hx) as Hsrc.
        destruct (N.eq_dec k i) as [->|Hne]; [apply Hslot_i; left; exact Hsrc|].
        unfold mpend_src in *. destruct (ms_frame HM k Hne) as [-> ->].
        destruct Hsrc as [H|[H1 H2]]; [left; exact H|right; split; [exact H1|apply Hpne; exact H2]].
      + destruct newrec as [v|] eqn:En; [|destruct Hx]. destruct Hx as [Hx|[]]. injection Hx as <- _.
        rewrite <- En in *. apply Hslot_i. right. congruence.
    - intros off len f j mj Hx Hj Hnd. destruct (F7 _ Hx) as [Hx'|[Hx' Hne]].
      + destruct (N.eq_dec j i) as [->|Hne].
        * destruct (ms_nd HM mj Hj Hnd) as [H0|(mi & Hs & Hnd' & E1 & E2)].
          { unfold disjoint. rewrite H0. lia. }
          pose proof (c_pdata HC off len f i mi Hx' Hs Hnd') as Hd. unfold disjoint in *. lia.
        * destruct (ms_frame HM j Hne) as [Hf _]. rewrite Hf in Hj.
          exact (c_pdata HC off len f j mj Hx' Hj Hnd).
      + cbn [fst snd] in Hne.
        destruct (ms_datas HM off len f Hx' Hne) as (mi' & Hs' & Hlo & Hhi & Hdirty).
        destruct (N.eq_dec j i) as [->|Hne'].
        * rewrite Hs' in Hj. injection Hj as <-. congruence.
        * pose proof (inv_region_len s' i mi' HI' Hs') as Hl1. pose proof (inv_region_len s' j mj HI' Hj) as Hl2.
          destruct (region_region_disjoint s' j i mj mi' HI' Hne' Hj Hs'); unfold disjoint; lia.
  Qed.

  Lemma ms_body_run :
    snd (mon_run m (meta_body s s' datas i newrec)) = true
    /\ CplIn ids s' (fst (mon_run m (meta_body s s' datas i newrec))).
  Proof using HI HI' HK HC HM.
    unfold meta_body, len_ev.
    (* after the optional CSetLen *)
    assert (Htail : let L := map data_ev datas ++ (match newrec with Some v => [CMeta i v] | None => [] end) in
                    let m2 := with_data m (m_pdata m) (m_vmem m) (file_len s') in
                    snd (mon_run m2 L) = true /\ CplIn ids s' (fst (mon_run m2 L))).
    { cbv zeta. destruct (run_datas datas m (m_pdata m) (m_vmem m) (file_len s')
                           (match newrec with Some v => [CMeta i v] | None => [] end) body_data_ok) as (pd & vm & -> & Hpd).
      (* newrec is a section variable on which HM depends: the three lemmas go into the context first, so
         that the destruct instantiates them too; called by name afterwards they would ask for the HM that
         the destruct has cleared *)
      pose proof body_untouched as Hunt. pose proof body_meta_ok as Hmok. pose proof cpl_final as Hfin.
      destruct newrec as [v|] eqn:En.
      - rewrite mon_run_one. cbn [mon_step fst snd]. rewrite (Hmok v pd vm eq_refl).
        change (untouched_slot_ok _ i) with (untouched_slot_ok m i). rewrite Hunt.
        split; [reflexivity|]. apply Hfin. exact Hpd.
      - split; [reflexivity|]. cbn [mon_run fst]. unfold with_data. rewrite <- (app_nil_r (m_pend m)). apply Hfin. exact Hpd. }
    pose proof (ms_len HM) as Hlen. pose proof (c_len HC) as Hcl.
    destruct (N.eqb_spec (file_len s') (file_len s)) as [E|E]; cbn [app].
    - rewrite E, <- Hcl, with_data_same in Htail. exact Htail.
    - rewrite mon_run_cons. cbn [mon_step fst snd]. replace (m_len m <=? file_len s') with true by lia. exact Htail.
  Qed.
End MetaStep.

Lemma no_punch_meta_body s s' datas i newrec : no_punch (meta_body s s' datas i newrec) = true.
Proof.
  assert (Hd : no_punch (map data_ev datas) = true).
  { apply forallb_forall. intros e Hin. apply in_map_iff in Hin. destruct Hin as ([[o l] g] & <- & _). reflexivity. }
  unfold meta_body, len_ev, no_punch in *. rewrite !forallb_app, Hd. now destruct (_ =? _), newrec as [v|].
Qed.

Theorem ms_body s s' ids datas i newrec :
  Inv s -> Inv s' -> MS s s' ids datas i newrec ->
  triple (CplIn ids s) (meta_body s s' datas i newrec) (CplIn ids s').
Proof.
  intros HI HI' HM m HK HC. destruct (ms_body_run s s' ids datas i newrec m HI HI' HK HC HM) as [Hok Hc].
  split; [exact Hok|]. split; [exact Hc|apply idle_no_punch, no_punch_meta_body].
Qed.

Theorem ms_sound s s' ids datas i newrec :
  Inv s -> Inv s' -> MS s s' ids datas i newrec ->
  triple (Cpl s) (meta_step_events ids s s' datas i newrec) (Cpl s').
Proof. intros HI HI' HM. now apply bracket_sound, ms_body. Qed.
