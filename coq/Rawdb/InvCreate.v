(* Rawdb/InvCreate.v — Inv of a state in which a fresh region has taken a `carved` page
   (`created_inv`); from it `create_post`. *)
From Anydb Require Import Common.Base Common.ListFacts Gen.Consts Rawdb.Alloc Rawdb.AllocInv
  Rawdb.AMapFacts Rawdb.CoverFacts Rawdb.InvLayout Rawdb.AllocErr
  Rawdb.InvOps.

Lemma created_inv s sb start L' id hold :
  Inv s -> find_id s id = None -> carved s sb start PAGE_SIZE L' ->
  let i := first_free (slots s) 0 in
  Inv (created sb i start id hold) /\ layout_len (created sb i start id hold) = L'.
Proof.
  intros HI Hfid Hc i. set (m := mkR start NEW_REGION_LEN NEW_REGION_RESERVED id ST_WRITE u64_max 0).
  assert (Hi0 : slot s i = None) by apply slot_first_free.
  (* the fields that `carved` leaves alone are read in s *)
  unfold created. rewrite (cv_slots Hc), (cv_s2r Hc), (cv_pend Hc), (cv_rfile Hc), (cv_resv Hc).
  match goal with |- Inv ?x /\ _ => set (s' := x) end.
  assert (Hsl : forall j, slot s' j = if j =? i then Some m else slot s j) by (intros j; now apply slot_set_at).
  refine (inv_put s s' i (Some m) L' HI eq_refl (asorted_ains _ _ _ (inv_sorted_s2r s HI)) ?[map] (cv_holes Hc)
            (inv_sorted_pend s HI) (inv_pend_aligned s HI) eq_refl ?[cover] (cv_file Hc) ?[local]
            (mirrors_gen s s' i _ (inv_rfile s HI) Hsl ?[rfile_others] ?[rfile_i])).
  [map]: { intros a. rewrite Hi0. apply aget_ains. }
  [cover]: { intros a. rewrite Hi0. unfold oext, rext, m. cbn [r_start r_reserved]. rewrite NEW_RESERVED_PAGE.
    pose proof (cv_cover Hc a). subst s'. st_simpl. lia. }
  [local]: { unfold rext, m. cbn [r_start r_reserved r_len r_id]. rewrite NEW_RESERVED_PAGE, NEW_LEN_0.
    split; [exact (cv_aligned Hc)|]. split; [apply N.le_0_l|]. split; [exact PAGE_le_MAX|].
    split; [intros j; rewrite (cv_fresh Hc); discriminate|right; exact Hfid]. }
  [rfile_others]: { intros j _. subst s'. st_simpl. destruct (len (rfile s) <? i + 1); [apply get_pad|left; reflexivity]. }
  [rfile_i]: { (* slot i of the regions file holds zeros: it did, or the file is padded up to it *)
    subst s' m. st_simpl. cbn [mirrors1 r_state r_len r_dmax]. change (ST_WRITE =? ST_WRITE) with true. cbn iota.
    split; [|split; [exact NEW_LEN_0|reflexivity]].
    pose proof (inv_rfile s HI i) as Hm. rewrite Hi0 in Hm.
    destruct Hm as [Hm|Hm].
    + destruct (len (rfile s) <? i + 1); [|exact Hm]. rewrite get_app_l; [exact Hm|exact (get_some_lt _ _ _ Hm)].
    + apply get_none_iff in Hm. destruct (N.ltb_spec (len (rfile s)) (i + 1)); [|lia].
      rewrite get_app_r by exact Hm. unfold get. rewrite nth_opt_repeat.
      destruct (Nat.ltb_spec (N.to_nat (i - len (rfile s))) (N.to_nat (i + 1 - len (rfile s)))); [reflexivity|lia]. }
Qed.

Lemma create_post s id hold : Inv s -> post False s (create s id hold).
Proof.
  intros HI. destruct (find_id s id) as [i0|] eqn:Hf.
  { rewrite (create_found s id hold i0 Hf).
    destruct hold; (split; [|now apply reuse_ok_same_len]); [now apply inv_set_held|exact HI]. }
  destruct (create_cases s id hold HI Hf) as (H & Q & fl & start & L' & Hc & HL & _ & ->).
  destruct (created_inv s _ start L' id hold HI Hf Hc) as [F1 F2].
  split; [exact F1|]. apply (reuse_ok_placed s _ _ _ PAGE_SIZE HI (slot_created (relaid s H Q fl) _ start id hold) NEW_RESERVED_PAGE).
  destruct HL as [HL|HL]; [left; exact (eq_trans F2 HL)|right; exact HL].
Qed.
