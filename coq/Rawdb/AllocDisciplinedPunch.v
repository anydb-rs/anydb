(* Punches occur only while no operation ids are current: the simulation shows it of every punch it
   meets (the last part of `AllocDisciplined.triple`; the one punching event is inside compact, whose COp
   names no id: AllocDisciplinedSync.settled_punch).  Hence `C12_all_histories_proof`:
   `C12_all_histories_partial_proof` of AllocDisciplinedAll.v without its hypothesis `m_cur m = []`. *)
From Anydb Require Import Common.Base Rawdb.Alloc
  Rawdb.Crash Rawdb.AllocEvents Rawdb.AllocDisciplined Rawdb.AllocDisciplinedAll.

(* C12 on every history of the model, FULL *)
Theorem C12_all_histories_proof :
  forall orcs min_len ops, forallb crash_op ops = true ->
  forall t1 off len t2, trace_of_o orcs min_len ops = t1 ++ CPunch off len :: t2 ->
    let m := fst (mon_run mon_init t1) in
    forall i v, In (Some v) (possible m i) -> disjoint off len (sr_start v) (sr_len v) = true.
Proof.
  intros orcs min_len ops H t1 off len t2 E m.
  apply (C12_all_histories_partial_proof orcs min_len ops H t1 off len t2 E).
  apply (idle_split t1 mon_init off len t2 (accepted_prefix orcs min_len ops t1 _ H E)). rewrite <- E.
  exact (proj2 (trace_covered orcs min_len ops (covered_of_crash_ops ops _ H))).
Qed.
