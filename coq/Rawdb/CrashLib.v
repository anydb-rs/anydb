(* Soundness of the crash monitor in LIB mode: pages reach the disk only through the library's syncs
   (images `lib_slots` / `lib_data` of CrashLibDefs.v).  Every LIB image is an OS image
   (`lib_image_is_os_image_proof`), so the OS-mode conclusions carry over.
   `C05_lib_general_proof`: for any checkpoint m0 with no metadata sync since, every LIB image
   holds, for a slot not overwritten in place, the checkpoint pair or (inside a metadata sync) the
   volatile pair; it uses M5 (metasync_ok) and the clause k_vmem of K.  `C05_lib_proof`
   (C05_lib_full) is its instance at the last CDataSync; CMetaSync. *)
From Anydb Require Import Common.Base Rawdb.Alloc Rawdb.Crash Rawdb.CrashFacts
  Rawdb.CrashInv Rawdb.CrashSound Rawdb.CrashLibDefs.

Lemma not_overwritten_cons d e t :
  not_overwritten d (e :: t) = true ->
  match d with Some w => ev_misses w e = true | None => True end /\ not_overwritten d t = true.
Proof.
  destruct d as [w|]; cbn [not_overwritten forallb]; [|tauto]. rewrite andb_true_iff. tauto.
Qed.

Lemma frame_run i d base t : forall m,
  K m -> dur_of m i = d -> Intact d base m -> snd (mon_run m t) = true ->
  no_metasync t = true -> not_overwritten d t = true ->
  dur_of (fst (mon_run m t)) i = d /\ Intact d base (fst (mon_run m t)).
Proof.
  induction t as [|e t IH]; intros m HK Hd HI Hok Hn Ho; [now split|].
  apply not_overwritten_cons in Ho. destruct Ho as [Ho1 Ho2].
  unfold no_metasync in Hn. cbn [forallb] in Hn. apply andb_true_iff in Hn. destruct Hn as [Hn1 Hn2].
  rewrite mon_run_cons in *. destruct (snd (mon_step m e)) eqn:Es; [|discriminate].
  apply IH; try assumption; [now apply K_step| |now apply intact_step].
  rewrite <- Hd. destruct e as [ | | | |? ln ?| | | | | | ]; try discriminate; try reflexivity. unfold dur_of. mcbn. now destruct (ln =? 0).
Qed.

Lemma in_keys_pend_of (l : list (N * option slotrec)) i : In i (map fst l) -> pend_of l i <> [].
Proof.
  rewrite in_map_iff. intros ([j v] & Hj & Hin). cbn [fst] in Hj. subst j.
  apply in_pend_of in Hin. intros E. rewrite E in Hin. destruct Hin.
Qed.

Lemma metasync_ok_latest m i v :
  metasync_ok m = true -> pend_of (m_pend m) i <> [] -> latest_of m i = Some v ->
  pdata_misses (Some v) m = true.
Proof.
  intros Hok Hne Hl. apply (proj1 (metasync_ok_spec m) Hok i). unfold latest_of in Hl. rewrite possible_eq in Hl.
  destruct (pend_of (m_pend m) i); [congruence|exact Hl].
Qed.

Theorem C05_lib_general_proof :
  forall t0 t1 p,
    snd (mon_run mon_init (t0 ++ t1 ++ lib_next p)) = true ->
    no_metasync t1 = true ->
    let m0 := fst (mon_run mon_init t0) in
    let m := fst (mon_run mon_init (t0 ++ t1)) in
    forall i sigma img, lib_slots p m sigma -> lib_data p m img ->
      pdata_misses (dur_of m0 i) m0 = true ->
      not_overwritten (dur_of m0 i) t1 = true ->
      (sigma i = dur_of m0 i /\ agree_on (sigma i) img (m_dmem m0))
      \/ (p = LInMetaSync /\ sigma i = latest_of m i /\ agree_on (sigma i) img (m_vmem m)).
Proof.
  intros t0 t1 p H Hnm m0 m i sigma img Hs Hd Hpm Hno.
  pose proof (K_reach t0 _ H) as HK0. fold m0 in HK0. rewrite app_assoc in H.
  pose proof (K_reach _ _ H) as HK. fold m in HK.
  destruct (mon_run_app _ _ _ H) as [H01 H2]. fold m in H2.
  assert (HF : dur_of m i = dur_of m0 i /\ Intact (dur_of m0 i) (m_dmem m0) m).
  { unfold m. rewrite mon_run_app_eq, (proj1 (mon_run_app _ _ _ H01)). apply frame_run; try assumption; try reflexivity.
    - split; [|exact Hpm]. destruct (dur_of m0 i); [intros a _; reflexivity|exact I].
    - exact (proj2 (mon_run_app _ _ _ H01)). }
  destruct HF as (F1 & HF). pose proof (intact_vmem _ _ m HK HF) as F3. destruct HF as (F2 & _).
  (* case (A) whenever the image holds the durable slot and, on the content, durable or volatile bytes *)
  assert (HA : sigma i = dur_of m i ->
               (forall a, img a = m_dmem m a \/ img a = m_vmem m a) ->
               sigma i = dur_of m0 i /\ agree_on (sigma i) img (m_dmem m0)).
  { intros E Himg. rewrite E, F1. split; [reflexivity|].
    destruct (dur_of m0 i) as [w|]; [|exact I]. intros a Ha.
    destruct (Himg a) as [->| ->]; [apply F2|apply F3]; exact Ha. }
  destruct p; cbn [lib_slots lib_data lib_next] in *.
  - (* outside a sync *) left. apply HA; [apply Hs|]. intros a. left. apply Hd.
  - (* inside the data sync *) left. apply HA; [apply Hs|]. intros a.
    destruct (Hd (page_of a)) as [Hp|Hp]; [left|right]; apply Hp; reflexivity.
  - (* inside the metadata sync *)
    destruct (Hs i) as [E|E]; [left; apply HA; [exact E|intros a; left; apply Hd]|].
    destruct (pend_of (m_pend m) i) as [|p0 rest] eqn:Ep.
    + (* no pending version of this slot: the latest one is the durable one *)
      left. apply HA; [|intros a; left; apply Hd].
      rewrite E. unfold latest_of. rewrite possible_eq, Ep. reflexivity.
    + right. split; [reflexivity|]. split; [exact E|]. rewrite E.
      destruct (latest_of m i) as [v|] eqn:El; [|exact I].
      assert (Hok : metasync_ok m = true) by (rewrite mon_run_one in H2; exact H2).
      assert (Hmiss : pdata_misses (Some v) m = true).
      { apply (metasync_ok_latest m i); [exact Hok|rewrite Ep; discriminate|exact El]. }
      pose proof (os_agree m _ (Some v) (k_vmem m HK) Hmiss) as Hag.
      intros a Ha. rewrite Hd. symmetry. apply Hag. exact Ha.
Qed.

Theorem lib_image_is_os_image_proof :
  forall t1 t2, snd (mon_run mon_init (t1 ++ t2)) = true ->
    let m := fst (mon_run mon_init t1) in
    forall p sigma img, lib_slots p m sigma -> lib_data p m img -> os_slots m sigma /\ os_data m img.
Proof.
  intros t1 t2 H m p sigma img Hs Hd. pose proof (K_reach t1 t2 H) as HK. fold m in HK. split.
  - intros i. assert (Hdur : In (dur_of m i) (possible m i)) by (left; reflexivity).
    destruct p; cbn [lib_slots] in Hs; try (rewrite Hs; exact Hdur).
    destruct (Hs i) as [-> | ->]; [exact Hdur|apply latest_in_possible].
  - intros a. destruct p; cbn [lib_data] in Hd; try (left; apply Hd).
    destruct (Hd (page_of a)) as [Hp|Hp]; rewrite (Hp a eq_refl); [left; reflexivity|apply (k_vmem m HK)].
Qed.

Lemma pair_pdata m : m_pdata (fst (mon_run m [CDataSync; CMetaSync])) = [].
Proof. cbn [mon_run mon_step]. destruct (metasync_ok _); reflexivity. Qed.

Theorem C05_lib_proof : C05_lib_full.
Proof.
  intros t0 t1 p tc H Hnm m0 m i sigma img Hs Hd Hno.
  assert (Hp0 : m_pdata m0 = []).
  { destruct (mon_run_app _ _ _ H) as [H0 _]. destruct (mon_run_app _ _ _ H0) as [Ha _].
    unfold m0, tc. rewrite mon_run_app_eq, Ha. apply pair_pdata. }
  assert (HK0 : K m0).
  { apply (K_reach tc (t1 ++ lib_next p)). exact H. }
  assert (Hvd : forall a, m_vmem m0 a = m_dmem m0 a).
  { intros a. destruct (k_vmem m0 HK0 a) as [E|(o & l & g & Hin & _)]; [exact E|].
    rewrite Hp0 in Hin. destruct Hin. }
  assert (Hpm : pdata_misses (dur_of m0 i) m0 = true).
  { unfold pdata_misses. rewrite Hp0. destruct (dur_of m0 i); reflexivity. }
  destruct (C05_lib_general_proof tc t1 p H Hnm i sigma img Hs Hd Hpm Hno) as [[E Hag]|HB].
  - left. split; [exact E|]. destruct (sigma i) as [w|]; [|exact I].
    intros a Ha. rewrite Hvd. apply Hag. exact Ha.
  - right. exact HB.
Qed.

(* M5 at a completed metadata sync: a lone metadata sync (flush without dirty regions) is a valid
   checkpoint of C05_lib_general for every slot it committed *)
Theorem C05_lib_commit_misses_proof :
  forall t, snd (mon_run mon_init (t ++ [CMetaSync])) = true ->
    let m := fst (mon_run mon_init t) in
    let m' := fst (mon_run mon_init (t ++ [CMetaSync])) in
    forall i, In i (map fst (m_pend m)) -> pdata_misses (dur_of m' i) m' = true.
Proof.
  intros t H m m' i Hin. destruct (mon_run_snoc _ _ _ H) as (_ & Hok & Em). fold m in Hok, Em. fold m' in Em.
  rewrite Em, dur_after_metasync. destruct (latest_of m i) as [v|] eqn:El; [|reflexivity].
  exact (metasync_ok_latest m i v Hok (in_keys_pend_of _ _ Hin) El).
Qed.

(* hence what the sync makes durable for a rewritten slot is the volatile pair *)
Theorem C05_lib_commit_proof :
  forall t, snd (mon_run mon_init (t ++ [CMetaSync])) = true ->
    let m := fst (mon_run mon_init t) in
    let m' := fst (mon_run mon_init (t ++ [CMetaSync])) in
    forall i, In i (map fst (m_pend m)) ->
      dur_of m' i = latest_of m i /\ agree_on (dur_of m' i) (m_dmem m') (m_vmem m).
Proof.
  intros t H m m' i Hin. pose proof (C05_lib_commit_misses_proof t H i Hin) as Hmiss.
  destruct (mon_run_snoc _ _ _ H) as (H0 & _ & Em). fold m in Em. fold m' in Em, Hmiss. rewrite Em in *.
  split; [apply dur_after_metasync|]. destruct (dur_of _ i) as [v|]; [|exact I].
  intros a Ha. symmetry. exact (os_agree m _ (Some v) (k_vmem m (K_run t _ K_init H0)) Hmiss a Ha).
Qed.

(* M3/M4: a region nobody addresses is never overwritten in place *)
Lemma unaddressed_run w i t : forall m,
  Prot m i w ->
  forallb (op_avoids (sr_id w)) t = true -> forallb (meta_avoids i) t = true ->
  snd (mon_run m t) = true -> forallb (ev_misses w) t = true.
Proof.
  induction t as [|e t IH]; intros m Hp Ho Hm Hok; [reflexivity|].
  cbn [forallb] in *. apply andb_true_iff in Ho. destruct Ho as [Ho1 Ho2].
  apply andb_true_iff in Hm. destruct Hm as [Hm1 Hm2]. rewrite mon_run_cons in Hok.
  destruct (snd (mon_step m e)) eqn:Hd; [|discriminate].
  destruct (prot_step m e i w Hp Hd Ho1 Hm1) as (-> & Hp'). now apply (IH (fst (mon_step m e))).
Qed.

Theorem lib_unaddressed_proof :
  forall t0 t1, snd (mon_run mon_init (t0 ++ t1)) = true ->
    let m0 := fst (mon_run mon_init t0) in
    forall i w, possible m0 i = [Some w] -> mem_in (sr_id w) (m_cur m0) = false ->
      forallb (op_avoids (sr_id w)) t1 = true -> forallb (meta_avoids i) t1 = true ->
      not_overwritten (Some w) t1 = true.
Proof.
  intros t0 t1 H m0 i w Hp Hc Ho Hm. apply mon_run_app in H. destruct H as [_ H1].
  cbn [not_overwritten]. exact (unaddressed_run w i t1 m0 (conj Hp Hc) Ho Hm H1).
Qed.
