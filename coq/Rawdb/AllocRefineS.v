(* C01, one step, for the operations that leave the layout and the data bytes alone, with what each
   touches: DropHandle (handles), SetMinLen (file length), SetMinRegions (file length, padding of
   the regions file), FlushRegion (one slot), Truncate, Rename (one slot and its record in the
   regions file). *)
From Anydb Require Import Common.Base Rawdb.Alloc Rawdb.AllocSpec Rawdb.AllocInv
  Rawdb.InvLayout Rawdb.AllocErr Rawdb.CompactFacts Rawdb.AllocRefine.

Lemma refines_drop_handle s id : Inv s -> refines_step s (DropHandle id).
Proof.
  intros HI. eapply refines_ok; [exact HI|reflexivity|reflexivity|intros Hu'].
  apply spec_eq_same; try reflexivity; [exact (inv_ids s HI)|exact Hu'].
Qed.

Lemma refines_set_min_len s n : Inv s -> refines_step s (SetMinLen n).
Proof.
  intros HI. eapply refines_ok; [exact HI|reflexivity|reflexivity|]. rewrite set_min_len_eq. intros Hu'.
  apply (spec_eq_same s _ (held s)); try reflexivity; [exact (inv_ids s HI)|exact Hu'].
Qed.

Lemma refines_set_min_regions s n : Inv s -> refines_step s (SetMinRegions n).
Proof.
  intros HI. eapply refines_ok; [exact HI|reflexivity|reflexivity|]. unfold set_min_regions. rewrite set_min_len_eq. intros Hu'.
  apply (spec_eq_same s _ (held s)); try reflexivity; [exact (inv_ids s HI)|exact Hu'|].
  intros j. destruct (len (rfile s) <? n); [|reflexivity].
  erewrite rfile_has_pad; [|reflexivity]. reflexivity.
Qed.

Lemma refines_flush_region s id : Inv s -> refines_step s (FlushRegion id).
Proof.
  intros HI. pose proof (inv_ids s HI) as Hu.
  eapply (refines_at s _ id); [reflexivity|reflexivity|intros i m Hs Hid Hst Hsp].
  unfold flush_region in Hst. rewrite Hs in Hst.
  cbn [s_persisted sview] in Hsp. rewrite (mirrors_has s i m (inv_rfile s HI) Hs) in Hsp.
  destruct (N.eqb_spec (r_state m) ST_CLEAN) as [E0|E0].
  - rewrite E0 in Hsp. eapply refines_ok; [exact HI|exact Hst|exact Hsp|intros Hu']. apply spec_eq_upd_same; auto. exact meta_eq_clear.
  - destruct (r_state m =? ST_WRITE); cbn [negb] in Hsp.
    + eapply refines_err; [exact HI|exact Hst|exact Hsp|intros Hu']. apply spec_eq_upd_same; auto. exact meta_eq_clear.
    + eapply refines_ok; [exact HI|exact Hst|exact Hsp|]. rewrite upd_upd. intros Hu'. apply spec_eq_upd_same; auto. intros m0.
      exact (meta_eq_trans _ _ _ (meta_eq_clear m0) (meta_eq_state _ ST_CLEAN)).
Qed.

Lemma refines_truncate s id from : Inv s -> refines_step s (Truncate id from).
Proof.
  intros HI. pose proof (inv_ids s HI) as Hu.
  eapply (refines_at s _ id); [reflexivity|reflexivity|intros i m Hs Hid Hst Hsp].
  unfold truncate in Hst. rewrite Hs in Hst. cbn [s_len s_data s_persisted sview] in Hsp.
  pose proof (inv_region_len s i m HI Hs) as Hlr.
  destruct (N.eqb_spec from (r_len m)) as [E0|E0].
  - destruct (N.ltb_spec (r_len m) from); [lia|].
    eapply refines_ok; [exact HI|exact Hst|exact Hsp|intros _]. apply (spec_eq_sput_same s id i m _ Hu (conj Hs Hid)).
    unfold sview, sreg_eq. cbn [s_len s_data s_persisted]. now rewrite orb_false_r.
  - destruct (N.ltb_spec (r_len m) from).
    + exact (refines_refused _ _ _ Hst Hsp).
    + (* the assert of set_len holds: from <= r_len m <= r_reserved m *)
      unfold ok_set_len in Hst. destruct (N.leb_spec from (r_reserved m)); [|lia]. cbn [negb] in Hst.
      rewrite (wid_upd_wput s i _ m Hs) in Hst.
      eapply refines_ok; [exact HI|exact Hst|exact Hsp|intros Hu'].
      destruct (meta_eq_fin (m_set_len m from)) as (F1 & F2 & _ & _).
      destruct (set_len_meta m from) as (X1 & X2 & _ & X4 & X5); [congruence|].
      refine (spec_eq_wput s i m (m_set_len m from) _ _ _ Hu Hu' Hs ?[regions] (fun y => eq_refl) ?[view]).
      [regions]: { intros x. rewrite sget_sput, X4, Hid. now destruct (x =? id). }
      [view]: { unfold sview, sreg_eq. cbn [s_len s_data s_persisted]. rewrite F1, F2, X1, X2, mem_wput.
        split; [reflexivity|]. split; [reflexivity|]. rewrite rfile_has_wput, N.eqb_refl, X5. now rewrite orb_true_r. }
Qed.

Lemma refines_rename s id new_id : Inv s -> refines_step s (Rename id new_id).
Proof.
  intros HI. pose proof (inv_ids s HI) as Hu.
  eapply (refines_at s _ id); [reflexivity|reflexivity|intros i m Hs Hid Hst Hsp].
  unfold rename in Hst. rewrite Hs in Hst. cbn [s_len s_data sview] in Hsp.
  destruct (find_id s new_id) as [i2|] eqn:Ef2.
  - destruct (find_id_sget_some s new_id i2 Ef2) as (m2 & _ & _ & Hg2).
    apply (refines_refused _ _ _ Hst). now rewrite Hsp, Hg2.
  - pose proof (proj1 (find_id_none_absent s new_id) Ef2) as Hab.
    rewrite (wid_upd_wput s i _ m Hs) in Hst.
    eapply refines_ok; [exact HI|exact Hst|now rewrite Hsp, (sget_abs_absent s new_id Hab)|].
    (* the new name differs from the present one: set_id does change the slot *)
    assert (Hx : m_set_id m new_id = mkR (r_start m) (r_len m) (r_reserved m) new_id ST_WRITE (r_dmin m) (r_dmax m)).
    { rewrite m_set_id_eq. destruct (N.eqb_spec (r_id m) new_id) as [E|]; [destruct (Hab i m Hs E)|reflexivity]. }
    rewrite Hx. intros Hu'.
    apply (spec_eq_set_held _ _ _ (held s)); [|intros y; now rewrite held_wput, Hid].
    refine (spec_eq_wput s i m _ _ _ _ Hu Hu' Hs ?[regions] (fun y => eq_refl) ?[view]).
    [regions]: { intros x. cbn [r_id]. now rewrite Hid, sget_sput, sget_sdel. }
    [view]: { unfold sview, sreg_eq. cbn [s_len s_data s_persisted].
      rewrite mem_wput, rfile_has_wput, N.eqb_refl. repeat split. }
Qed.
