(* Rawdb/InvFlush.v — Database::flush keeps Inv and the layout length (`inv_flush`): the slot table only
   changes state and dirty bounds (`meta_kept`), and promote_pending_holes turns every pending extent into
   a real hole, coalescing on both sides (a fold with invariant `promote_inv`).  Other files enter through
   `flush_shape` (flush is such a map, then promote) and `promote_eq` (promote touches holes, h2s and
   pend only). *)
From Anydb Require Import Common.Base Common.ListFacts Rawdb.AMap Rawdb.Alloc Rawdb.AllocInv
  Rawdb.AMapFacts Rawdb.CoverFacts Rawdb.InvLayout Rawdb.HolesFacts Rawdb.InvOps.

(* the last two clauses are what rfile_mirrors needs: a never-written record without dirty bytes stays as it
   is, and no record goes to NEEDS_WRITE *)
Definition meta_kept (g : rmeta -> rmeta) : Prop :=
  forall m, r_start (g m) = r_start m /\ r_len (g m) = r_len m /\ r_reserved (g m) = r_reserved m
            /\ r_id (g m) = r_id m
            /\ (r_state m = ST_WRITE -> r_dmax m = 0 -> g m = m)
            /\ (r_state m <> ST_WRITE -> r_state (g m) <> ST_WRITE).

Section MetaKept.
Context {g : rmeta -> rmeta} (Hg : meta_kept g) (m : rmeta).
Lemma meta_kept_start : r_start (g m) = r_start m. Proof. apply Hg. Qed.
Lemma meta_kept_len : r_len (g m) = r_len m. Proof. apply Hg. Qed.
Lemma meta_kept_reserved : r_reserved (g m) = r_reserved m. Proof. apply Hg. Qed.
Lemma meta_kept_id : r_id (g m) = r_id m. Proof. apply Hg. Qed.
Lemma meta_kept_unwritten : r_state m = ST_WRITE -> r_dmax m = 0 -> g m = m. Proof. apply Hg. Qed.
Lemma meta_kept_written : r_state m <> ST_WRITE -> r_state (g m) <> ST_WRITE. Proof. apply Hg. Qed.
End MetaKept.

Lemma slot_map_lift s g i : slot (set_slots s (map (option_map g) (slots s))) i = option_map g (slot s i).
Proof.
  unfold slot. cbn [slots set_slots]. rewrite get_map. destruct (get (slots s) i) as [[m|]|]; reflexivity.
Qed.

Lemma region_exts_map_lift g l : meta_kept g -> region_exts (map (option_map g) l) = region_exts l.
Proof.
  intros Hg. induction l as [|[m|] t IH]; cbn [map option_map region_exts]; [reflexivity| |exact IH].
  rewrite (meta_kept_start Hg), (meta_kept_reserved Hg), IH. reflexivity.
Qed.

Lemma inv_map_slots s g :
  Inv s -> meta_kept g ->
  Inv (set_slots s (map (option_map g) (slots s)))
  /\ layout_len (set_slots s (map (option_map g) (slots s))) = layout_len s.
Proof.
  intros HI Hg. set (s' := set_slots s (map (option_map g) (slots s))).
  assert (Hslot : forall i, slot s' i = option_map g (slot s i)) by (intros; apply slot_map_lift).
  assert (Hsome : forall i m', slot s' i = Some m' -> exists m, slot s i = Some m /\ m' = g m).
  { intros i m'. rewrite Hslot. destruct (slot s i) as [m|]; [intros [= <-]; eauto|discriminate]. }
  (* holes, pending holes, start_to_region and the files are those of s *)
  refine (mk_inv_ok s' (layout_len s) ?[slots] (inv_holes_ok s HI) (inv_sorted_pend s HI) (inv_pend_aligned s HI)
            (inv_no_resv s HI) ?[cover] (inv_sorted_s2r s HI) ?[s2r] (inv_file s HI) ?[ids] ?[rfile]).
  [slots]: { intros i m' Hs. destruct (Hsome i m' Hs) as (m & E & ->). unfold rext.
    rewrite (meta_kept_start Hg), (meta_kept_len Hg), (meta_kept_reserved Hg). exact (inv_slot_ok s i m HI E). }
  [cover]: { intros a. subst s'. cbn [slots holes pend set_slots]. rewrite region_exts_map_lift by exact Hg.
    exact (inv_cover3 s a HI). }
  [s2r]: { intros a i. change (s2r s') with (s2r s). rewrite (inv_s2r s HI). split; intros (m & Hs & <-).
    + exists (g m). rewrite Hslot, Hs. split; [reflexivity|apply (meta_kept_start Hg)].
    + destruct (Hsome i m Hs) as (m0 & E & ->). exists m0. split; [exact E|symmetry; apply (meta_kept_start Hg)]. }
  [ids]: { intros i j mi mj Hi Hj. destruct (Hsome i mi Hi) as (mi0 & Ei & ->), (Hsome j mj Hj) as (mj0 & Ej & ->).
    rewrite !(meta_kept_id Hg). exact (inv_ids s HI i j mi0 mj0 Ei Ej). }
  [rfile]: { intros i. pose proof (inv_rfile s HI i) as H. rewrite Hslot. change (rfile s') with (rfile s).
    destruct (slot s i) as [m|]; cbn [option_map]; [|exact H].
    destruct (N.eqb_spec (r_state m) ST_WRITE) as [E|E].
    + destruct H as (Ha & Hb & Hc). rewrite (meta_kept_unwritten Hg m E Hc), E, N.eqb_refl. auto.
    + destruct (N.eqb_spec (r_state (g m)) ST_WRITE) as [E'|_]; [destruct (meta_kept_written Hg m E E')|].
      rewrite (meta_kept_start Hg), (meta_kept_len Hg), (meta_kept_reserved Hg), (meta_kept_id Hg). exact H. }
Qed.

Definition flush_clean (m : rmeta) : rmeta :=
  if flush_region_is_dirty m then m_set_state (m_clear_dirty m) ST_CLEAN else m_clear_dirty m.

Lemma meta_kept_clear_dirty : meta_kept m_clear_dirty.
Proof.
  intros m. unfold m_clear_dirty. destruct (m_is_dirty m) eqn:E; cbn [r_start r_len r_reserved r_id r_state].
  - repeat split; auto. intros _ H0. unfold m_is_dirty in E. lia.
  - repeat split; auto.
Qed.

Lemma meta_kept_flush_clean : meta_kept flush_clean.
Proof.
  intros m. destruct (meta_kept_clear_dirty m) as (H1 & H2 & H3 & H4 & H5 & H6).
  unfold flush_clean. destruct (flush_region_is_dirty m) eqn:E.
  - unfold m_set_state. cbn [r_start r_len r_reserved r_id r_state].
    repeat split; auto; [|intros _; discriminate].
    intros Hst H0. exfalso. unfold flush_region_is_dirty, m_is_dirty in E. rewrite Hst, H0 in E.
    change (ST_WRITE =? ST_FLUSH) with false in E. lia.
  - repeat split; auto.
Qed.

Lemma flush_shape s :
  exists g n, meta_kept g /\ flush s = (promote (set_slots s (map (option_map g) (slots s))), n).
Proof.
  unfold flush. destruct (filter _ (slots s)) as [|x l].
  - exists m_clear_dirty, 0. split; [apply meta_kept_clear_dirty|reflexivity].
  - exists flush_clean. eexists. split; [apply meta_kept_flush_clean|].
    f_equal. f_equal. f_equal. apply map_ext. intros [m|]; [|reflexivity].
    cbn [option_map]. unfold flush_clean. destruct (flush_region_is_dirty m); reflexivity.
Qed.

(* the two halves of promote_one: coalesce with the real hole that ends at `start` (layout.rs, "BEFORE"),
   then with the one that starts at the end of the result ("AFTER") *)
Definition pleft (s : st) (start size : N) : st * N * N :=
  match apred start (holes s) with
  | Some (hs, hz) => if hs + hz =? start then (fst (remove_hole s hs), hs, size + hz) else (s, start, size)
  | None => (s, start, size)
  end.

Definition pright (s1 : st) (f sz : N) : st * N :=
  match remove_hole s1 (f + sz) with
  | (s', Some z) => (s', sz + z)
  | (s', None) => (s', sz)
  end.

Lemma promote_one_eq s start size :
  promote_one s (start, size) =
  let '(s1, f, sz) := pleft s start size in
  let '(s2, sz2) := pright s1 f sz in insert_hole s2 f sz2.
Proof. reflexivity. Qed.

Lemma promote_one_frame s p : frame (promote_one s p) = frame s.
Proof.
  destruct p as [a z]. unfold promote_one, remove_hole.
  destruct (apred a (holes s)) as [[hs hz]|]; [destruct (hs + hz =? a); [destruct (aget hs (holes s))|]|];
    cbn [fst holes set_holes]; destruct (aget _ _); reflexivity.
Qed.

Lemma promote_eq s : promote s = set_holes (set_pend s []) (holes (promote s)) (h2s (promote s)).
Proof.
  apply frame_eq. unfold promote. generalize (set_pend s []) as t.
  induction (pend s) as [|p l IH]; intros t; cbn [fold_left]; [reflexivity|]. now rewrite IH, promote_one_frame.
Qed.

Section Step.
Variable t : st.
Variables start size : N.
Hypothesis Hok : holes_ok (holes t) (h2s t).
Hypothesis Hle1 : forall a, (owners (holes t) a + cov (start, size) a <= 1)%nat.
Hypothesis Hp : aligned (start, size).

Lemma hole_apart_pending a z : aget a (holes t) = Some z -> a + z <= start \/ start + size <= a.
Proof.
  intros Hg. pose proof (holes_ok_pos Hok Hg) as Hz. destruct Hp as (_ & _ & Hs).
  apply (disjoint_of_count ((start, size) :: holes t) (a, z) (start, size)); auto.
  - intros x. rewrite owners_cons. pose proof (Hle1 x). lia.
  - intros x. rewrite owners_cons. pose proof (owners_in _ _ x (aget_in _ _ _ Hg)). lia.
Qed.

Definition left_post (H1 : amap N) (Q1 : amap (list N)) (f sz : N) : Prop :=
  holes_ok H1 Q1
  /\ (forall x w, aget x H1 = Some w -> x + w < f \/ start + size <= x)
  /\ (forall a, (owners H1 a + cov (f, sz) a = owners (holes t) a + cov (start, size) a)%nat)
  /\ aligned (f, sz) /\ f + sz = start + size.

Lemma pleft_spec :
  exists H1 Q1 f sz, pleft t start size = (set_holes t H1 Q1, f, sz) /\ left_post H1 Q1 f sz.
Proof.
  pose proof (holes_ok_sorted Hok) as Hsh.
  assert (Hkeep : (forall hs hz, apred start (holes t) = Some (hs, hz) -> hs + hz <> start) ->
                  left_post (holes t) (h2s t) start size).
  { intros Hno. split; [exact Hok|]. split; [|split; [reflexivity|split; [exact Hp|reflexivity]]].
    intros x w Hx. pose proof (holes_ok_pos Hok Hx) as Hw.
    destruct (hole_apart_pending _ _ Hx) as [Hd|Hd]; [left|right; exact Hd].
    destruct (N.eq_dec (x + w) start) as [He|]; [exfalso|lia].
    destruct (apred start (holes t)) as [[hs hz]|] eqn:Ep.
    - destruct (apred_some _ _ _ _ Ep) as [HIn Hlt]. pose proof (in_aget _ _ _ Hsh HIn) as Hg.
      pose proof (apred_max _ _ _ _ x w Hsh Ep (aget_in _ _ _ Hx)) as Hmax.
      destruct (N.eq_dec x hs) as [->|Hne].
      + rewrite Hg in Hx. injection Hx as ->. exact (Hno _ _ eq_refl He).
      + assert (Hl : x < hs) by lia. pose proof (holes_ok_sep Hok Hx Hg Hl). lia.
    - pose proof (apred_none _ _ _ _ Hsh Ep (aget_in _ _ _ Hx)). lia. }
  unfold pleft. destruct (apred start (holes t)) as [[hs hz]|] eqn:Ep.
  - destruct (apred_some _ _ _ _ Ep) as [HIn Hlt]. pose proof (in_aget _ _ _ Hsh HIn) as Hg.
    destruct (N.eqb_spec (hs + hz) start) as [Ee|Ene].
    + unfold remove_hole. rewrite Hg. cbn [fst].
      exists (arem hs (holes t)), (h2s_drop (h2s t) hz hs), hs, (size + hz).
      split; [reflexivity|]. split; [now apply holes_ok_remove|]. split; [|split; [|split]].
      * intros x w. rewrite aget_arem by exact Hsh. destruct (N.eqb_spec x hs) as [|Hne]; [discriminate|]. intros Hx.
        destruct (N.lt_ge_cases x hs) as [Hl|Hl]; [left; exact (holes_ok_sep Hok Hx Hg Hl)|right].
        assert (Hl' : hs < x) by lia. pose proof (holes_ok_sep Hok Hg Hx Hl'). pose proof (holes_ok_pos Hok Hx).
        destruct (hole_apart_pending _ _ Hx); lia.
      * intros a. pose proof (owners_arem _ _ _ a Hg). rewrite N.add_comm, cov_app, Ee. lia.
      * rewrite N.add_comm. apply aligned_app; [exact (holes_ok_aligned Hok Hg)|now rewrite Ee].
      * lia.
    + exists (holes t), (h2s t), start, size. split; [now rewrite set_holes_same|].
      apply Hkeep. intros hs' hz' [= <- <-]. exact Ene.
  - exists (holes t), (h2s t), start, size. split; [now rewrite set_holes_same|]. apply Hkeep. discriminate.
Qed.

Lemma promote_one_ok :
  let t' := promote_one t (start, size) in
  holes_ok (holes t') (h2s t') /\ forall a, owners (holes t') a = (owners (holes t) a + cov (start, size) a)%nat.
Proof.
  destruct pleft_spec as (H1 & Q1 & f & sz & E1 & Hok1 & Hfar1 & Hc1 & Hp1 & Hfe).
  cbv zeta. rewrite promote_one_eq, E1. cbv beta iota. unfold pright, remove_hole. cbn [holes h2s set_holes].
  pose proof (holes_ok_sorted Hok1) as Hs1.
  destruct (aget (f + sz) H1) as [z|] eqn:Hg; st_simpl.
  - assert (Hf : far (arem (f + sz) H1) f (sz + z)).
    { intros x w. rewrite aget_arem by exact Hs1. destruct (N.eqb_spec x (f + sz)) as [|Hne]; [discriminate|].
      intros Hx. destruct (Hfar1 _ _ Hx) as [Hl|Hr]; [left; exact Hl|right].
      assert (Hl : f + sz < x) by lia. pose proof (holes_ok_sep Hok1 Hg Hx Hl). lia. }
    split.
    + apply holes_ok_insert; [now apply holes_ok_remove| |exact Hf].
      apply aligned_app; [exact Hp1|exact (holes_ok_aligned Hok1 Hg)].
    + intros a. rewrite owners_ains_absent by exact (far_absent _ _ _ Hf).
      pose proof (owners_arem _ _ _ a Hg). rewrite cov_app. specialize (Hc1 a). lia.
  - assert (Hf : far H1 f sz).
    { intros x w Hx. destruct (Hfar1 _ _ Hx) as [Hl|Hr]; [left; exact Hl|right].
      destruct (N.eq_dec x (f + sz)) as [->|]; [congruence|lia]. }
    split; [now apply holes_ok_insert|].
    intros a. rewrite owners_ains_absent by exact (far_absent _ _ _ Hf). specialize (Hc1 a). lia.
Qed.
End Step.

(* R: the region extents (fixed); H, Q: the real holes so far; rest: the pending extents still to process *)
Definition promote_inv (R : list ext) (L : N) (H : amap N) (Q : amap (list N)) (rest : list ext) : Prop :=
  holes_ok H Q
  /\ (forall a, (owners R a + owners H a + owners rest a)%nat = if a <? L then 1%nat else 0%nat)
  /\ Forall aligned rest.

Lemma promote_fold R L rest : forall t,
  promote_inv R L (holes t) (h2s t) rest ->
  promote_inv R L (holes (fold_left promote_one rest t)) (h2s (fold_left promote_one rest t)) [].
Proof.
  induction rest as [|[start size] rest IH]; intros t (Hok & Hcnt & Hrest); [now split|].
  cbn [fold_left]. apply IH. inversion Hrest as [|? ? Hp Hrest']; subst.
  destruct (promote_one_ok t start size Hok) as [Hok' Hc]; [|exact Hp|].
  { intros a. specialize (Hcnt a). rewrite owners_cons in Hcnt. destruct (a <? L); lia. }
  split; [exact Hok'|]. split; [|exact Hrest'].
  intros a. rewrite Hc, <- (Hcnt a), owners_cons. lia.
Qed.

Theorem inv_promote s : Inv s -> Inv (promote s) /\ layout_len (promote s) = layout_len s.
Proof.
  intros HI.
  assert (HJ : promote_inv (region_exts (slots s)) (layout_len s) (holes s) (h2s s) (pend s)).
  { split; [now apply inv_holes_ok|]. split.
    - intros a. exact (inv_cover3 s a HI).
    - exact (inv_pend_aligned s HI). }
  apply (promote_fold _ _ _ (set_pend s [])) in HJ. fold (promote s) in HJ. destruct HJ as (Hok & Hcnt & _).
  rewrite promote_eq.
  (* slots, s2r, file and rfile are those of s; pend is [], hence `I` and `Forall_nil` *)
  exact (mk_inv_ok (set_holes (set_pend s []) _ _) _ (fun j mj => inv_slot_ok s j mj HI) Hok I (Forall_nil _)
           (inv_no_resv s HI) Hcnt (inv_sorted_s2r s HI) (inv_s2r s HI) (inv_file s HI) (inv_ids s HI) (inv_rfile s HI)).
Qed.

Theorem inv_flush s : Inv s -> Inv (fst (flush s)) /\ layout_len (fst (flush s)) = layout_len s.
Proof.
  intros HI. destruct (flush_shape s) as (g & n & Hg & E). rewrite E. cbn [fst].
  destruct (inv_map_slots s g HI Hg) as [HI1 HL1].
  destruct (inv_promote _ HI1) as [A B]. split; [exact A|]. now rewrite B.
Qed.

Corollary inv_flush_nopend s : Inv s -> pend s = [] -> Inv (fst (flush s)).
Proof. intros HI _. exact (proj1 (inv_flush s HI)). Qed.
