(* Rawdb/InvRemove.v — remove and retain keep Inv and the layout length: the extent of a removed region
   becomes a pending hole (`removed_inv`). *)
From Anydb Require Import Common.Base Rawdb.AMap Rawdb.Alloc Rawdb.AllocInv
  Rawdb.AMapFacts Rawdb.CoverFacts Rawdb.HolesFacts Rawdb.AllocErr Rawdb.InvOps.

Lemma Forall_arem (P : ext -> Prop) k (m : amap N) : Forall P m -> Forall P (arem k m).
Proof.
  intros Hm. apply Forall_forall. intros e HI. apply in_arem in HI. rewrite Forall_forall in Hm. auto.
Qed.

Lemma removed_inv s i m : Inv s -> slot s i = Some m -> Inv (removed s i m) /\ layout_len (removed s i m) = layout_len s.
Proof.
  intros HI Hs.
  refine (inv_put s (removed s i m) i None (layout_len s) HI eq_refl (asorted_arem _ _ (inv_sorted_s2r s HI)) ?[map]
            (inv_holes_ok s HI) (asorted_ains _ _ _ (inv_sorted_pend s HI)) ?[pend] (inv_no_resv s HI) ?[cover]
            (inv_file s HI) I ?[rfile]).
  [map]: { intros a. rewrite Hs. apply aget_arem. now apply inv_sorted_s2r. }
  [pend]: { apply Forall_ains; [exact (inv_pend_aligned s HI)|apply (inv_region_aligned s i m HI Hs)]. }
  [cover]: { intros a. rewrite Hs. cbn [removed holes pend oext].
    rewrite owners_ains_absent by exact (inv_region_start_not_pend s i m HI Hs).
    pose proof (inv_cover3 s a HI). unfold rext. lia. }
  [rfile]: { apply (mirrors_gen s _ i None (inv_rfile s HI)).
    + intros j. apply slot_removed.
    + intros j Hne. now apply get_set_at_other.
    + left. apply get_set_at_same. }
Qed.

Lemma remove_post s id : Inv s -> post False s (remove s id).
Proof.
  intros HI. unfold remove. destruct (find_id s id) as [i|]; [|now apply post_same].
  unfold remove_idx. destruct (slot s i) as [m|] eqn:Hs; [|now apply post_same].
  destruct (is_held s (r_id m)); [now apply post_same|].
  rewrite layout_remove_region_ok by (auto using inv_s2r_ok). apply post_len. exact (removed_inv s i m HI Hs).
Qed.

Lemma retain_post s keep : Inv s -> post False s (retain s keep).
Proof.
  intros HI. unfold retain. destruct (retain_blocked s keep) eqn:Eb; [now apply post_same|].
  destruct (retain_from_shape (fun s' => Inv s' /\ layout_len s' = layout_len s)) with (fuel := slots s) (s0 := s) (keep := keep) (i := 0)
    as (s1 & -> & [H1 H2] & _).
  - intros s' [H _]. now apply inv_s2r_ok.
  - intros s' i m [HI' HL] Hs. destruct (removed_inv s' i m HI' Hs) as [A B]. split; [exact A|congruence].
  - now split.
  - intros j _. unfold slot. now rewrite N.sub_0_r.
  - exact (retain_blocked_false s keep Eb).
  - cbn [abind]. apply post_len. split; [apply inv_set_held, H1|exact H2].
Qed.
