(* `spec_step` respects `spec_eq` on reference states with unique region keys (`spec_wf`):
   `spec_step_congr`.  Unique keys are needed for `Reopen` alone, which filters the region list by
   value (`sget_filter_val`). *)
From Anydb Require Import Common.Base Rawdb.Alloc Rawdb.AllocSpec Rawdb.SpecFacts.

Definition spec_wf (sp : spec) : Prop := NoDup (map fst (sp_regions sp)).

Example spec_wf_init : spec_wf sp_init.
Proof. constructor. Qed.

Definition regs_eq (la lb : list (N * sreg)) : Prop :=
  forall id, match sget id la, sget id lb with
             | Some x, Some y => sreg_eq x y
             | None, None => True
             | _, _ => False
             end.
Definition held_eq (ha hb : list N) : Prop :=
  forall id, existsb (fun x => x =? id) ha = existsb (fun x => x =? id) hb.

Lemma spec_eq_mk la lb ha hb : regs_eq la lb -> held_eq ha hb -> spec_eq (mkSpec la ha) (mkSpec lb hb).
Proof. intros H1 H2. exact (conj H1 H2). Qed.
Lemma spec_eq_regs a b : spec_eq a b -> regs_eq (sp_regions a) (sp_regions b).
Proof. intros [H _]. exact H. Qed.
Lemma spec_eq_held a b : spec_eq a b -> held_eq (sp_held a) (sp_held b).
Proof. intros [_ H]. exact H. Qed.

Lemma is_in_In i l : existsb (fun x => x =? i) l = true <-> In i l.
Proof.
  rewrite existsb_exists. split; [intros (x & Hx & E); apply N.eqb_eq in E; now subst|].
  intros H. exists i. now rewrite N.eqb_refl.
Qed.

Lemma held_eq_In ha hb : held_eq ha hb <-> forall i, In i ha <-> In i hb.
Proof.
  split; intros H i; [now rewrite <- !is_in_In, (H i)|]. apply eq_true_iff_eq. rewrite !is_in_In. apply H.
Qed.

Lemma held_eq_cons id ha hb : held_eq ha hb -> held_eq (id :: ha) (id :: hb).
Proof. rewrite !held_eq_In. intros H i. cbn [In]. now rewrite (H i). Qed.
Lemma held_eq_filter p ha hb : held_eq ha hb -> held_eq (filter p ha) (filter p hb).
Proof. rewrite !held_eq_In. intros H i. now rewrite !filter_In, (H i). Qed.
Lemma held_eq_map (g : N -> N) ha hb : held_eq ha hb -> held_eq (map g ha) (map g hb).
Proof.
  rewrite !held_eq_In. intros H i. rewrite !in_map_iff.
  split; intros (x & E & Hx); exists x; (split; [exact E|now apply H]).
Qed.

Lemma regs_eq_sput id x y la lb : regs_eq la lb -> sreg_eq x y -> regs_eq (sput id x la) (sput id y lb).
Proof. intros H Hxy i. rewrite !sget_sput. destruct (i =? id); [exact Hxy | apply H]. Qed.
Lemma regs_eq_filter_key p la lb : regs_eq la lb ->
  regs_eq (filter (fun kv => p (fst kv)) la) (filter (fun kv => p (fst kv)) lb).
Proof. intros H i. rewrite !sget_filter_key. destruct (p i); [apply H | exact I]. Qed.
Lemma regs_eq_sdel id la lb : regs_eq la lb -> regs_eq (sdel id la) (sdel id lb).
Proof. rewrite !sdel_filter. apply (regs_eq_filter_key (fun k => negb (k =? id))). Qed.
Lemma regs_eq_filter_persisted la lb : NoDup (map fst la) -> NoDup (map fst lb) -> regs_eq la lb ->
  regs_eq (filter (fun kv => s_persisted (snd kv)) la) (filter (fun kv => s_persisted (snd kv)) lb).
Proof.
  intros Ha Hb H i. rewrite !(sget_filter_val s_persisted) by assumption.
  specialize (H i). destruct (sget i la) as [x|], (sget i lb) as [y|]; try (exfalso; exact H); [|exact I].
  pose proof H as (_ & _ & Hp). rewrite Hp. destruct (s_persisted y); [exact H | exact I].
Qed.
Lemma regs_eq_dom la lb k : regs_eq la lb -> (sget k la <> None <-> sget k lb <> None).
Proof.
  intros H. specialize (H k).
  destruct (sget k la), (sget k lb); try (exfalso; exact H); split; congruence.
Qed.

(* the refusal test of Retain mentions only what spec_eq preserves: which keys are present and
   which are held *)
Lemma existsb_key_sget (q : N -> bool) l :
  existsb (fun kv => q (fst kv)) l = true <-> exists k, sget k l <> None /\ q k = true.
Proof.
  rewrite existsb_exists. split.
  - intros ([k v] & Hin & Hq). exists k. split; [eapply In_sget_some; exact Hin | exact Hq].
  - intros (k & Hs & Hq). destruct (sget k l) as [v|] eqn:E; [|congruence].
    exists (k, v). split; [apply sget_In; exact E | exact Hq].
Qed.

Lemma retain_test_congr a b keep : spec_eq a b ->
  existsb (fun kv => negb (existsb (fun y => y =? fst kv) keep) && sp_is_held a (fst kv)) (sp_regions a) =
  existsb (fun kv => negb (existsb (fun y => y =? fst kv) keep) && sp_is_held b (fst kv)) (sp_regions b).
Proof.
  intros [Hr Hh]. apply eq_true_iff_eq.
  pose proof (existsb_key_sget (fun k => negb (existsb (fun y => y =? k) keep) && sp_is_held a k) (sp_regions a)) as Ea.
  pose proof (existsb_key_sget (fun k => negb (existsb (fun y => y =? k) keep) && sp_is_held b k) (sp_regions b)) as Eb.
  cbv beta in Ea, Eb. rewrite Ea, Eb.
  split; intros (k & Hs & Hq); exists k; (split; [apply (regs_eq_dom _ _ k Hr); exact Hs|]).
  - rewrite <- Hh. exact Hq.
  - rewrite Hh. exact Hq.
Qed.

Lemma s_write_congr x y f n at_ tr : sreg_eq x y ->
  match s_write x f n at_ tr, s_write y f n at_ tr with
  | Ok x', Ok y' => sreg_eq x' y'
  | Err e1, Err e2 => e1 = e2
  | _, _ => False
  end.
Proof.
  intros (Hl & Hd & Hp). unfold s_write. rewrite <- Hl, <- Hp. destruct at_ as [a|].
  - destruct (s_len x <? a) eqn:E; [reflexivity|].
    split; [reflexivity|split; [|reflexivity]]. cbn [s_len s_data s_persisted].
    intros k Hk. destruct ((a <=? k) && (k <? a + n)) eqn:E2; [reflexivity|].
    apply Hd. destruct tr; lia.
  - split; [reflexivity|split; [|reflexivity]]. cbn [s_len s_data s_persisted].
    intros k Hk. destruct (k <? s_len x) eqn:E2; [apply Hd; lia | reflexivity].
Qed.

Lemma sp_with_congr a b id ka kb : spec_eq a b ->
  (forall x y, sreg_eq x y -> spec_eq (fst (ka x)) (fst (kb y)) /\ snd (ka x) = snd (kb y)) ->
  spec_eq (fst (sp_with a id ka)) (fst (sp_with b id kb)) /\ snd (sp_with a id ka) = snd (sp_with b id kb).
Proof.
  intros H Hk. unfold sp_with. pose proof (spec_eq_regs _ _ H id) as Hi.
  destruct (sget id (sp_regions a)) as [x|], (sget id (sp_regions b)) as [y|]; try (exfalso; exact Hi);
    [now apply Hk|split; [exact H|reflexivity]].
Qed.

Lemma sp_with_wf sp id k : spec_wf sp -> (forall r, spec_wf (fst (k r))) -> spec_wf (fst (sp_with sp id k)).
Proof. intros H Hk. unfold sp_with. destruct (sget id (sp_regions sp)); [apply Hk|exact H]. Qed.

Lemma spec_wr_congr a b id f n at_ tr : spec_eq a b ->
  spec_eq (fst (spec_wr a id f n at_ tr)) (fst (spec_wr b id f n at_ tr)) /\
  snd (spec_wr a id f n at_ tr) = snd (spec_wr b id f n at_ tr).
Proof.
  intros H. apply sp_with_congr; [exact H|]. intros x y Hi.
  pose proof (s_write_congr x y f n at_ tr Hi) as Hw.
  destruct (s_write x f n at_ tr) as [x'|e1|], (s_write y f n at_ tr) as [y'|e2|];
    try (exfalso; exact Hw); cbn [fst snd].
  - split; [|reflexivity].
    apply spec_eq_mk; [apply regs_eq_sput; [apply spec_eq_regs; exact H|exact Hw] | apply spec_eq_held; exact H].
  - split; [exact H|]. f_equal. exact Hw.
Qed.

Theorem spec_step_wf : forall sp o, spec_wf sp -> spec_wf (fst (spec_step sp o)).
Proof.
  intros sp o H.
  assert (Hw : forall id f n at_ tr, spec_wf (fst (spec_wr sp id f n at_ tr))).
  { intros id f n at_ tr. apply sp_with_wf; [exact H|]. intros r.
    destruct (s_write r f n at_ tr); [apply keys_nodup_sput| |]; exact H. }
  destruct o as [id hold|id f n|id f n at_|id f n at_|id from|id nid|id|id|keep| |id| | |m|m]; try exact H;
    try apply Hw.
  - cbn [spec_step]. destruct (sget id (sp_regions sp)); [exact H|apply keys_nodup_sput; exact H].
  - apply sp_with_wf; [exact H|intros r]. destruct (s_len r <? from); [exact H|apply keys_nodup_sput; exact H].
  - apply sp_with_wf; [exact H|intros r].
    destruct (sget nid (sp_regions sp)); [exact H|apply keys_nodup_sput, keys_nodup_sdel; exact H].
  - apply sp_with_wf; [exact H|intros r]. destruct (sp_is_held sp id); [exact H|apply keys_nodup_sdel; exact H].
  - cbn [spec_step]. destruct (existsb _ (sp_regions sp)); [exact H|apply keys_nodup_filter; exact H].
  - apply sp_with_wf; [exact H|intros r; exact H].
  - apply keys_nodup_filter; exact H.
Qed.

Theorem spec_step_congr : forall a b o, spec_wf a -> spec_wf b -> spec_eq a b ->
  spec_eq (fst (spec_step a o)) (fst (spec_step b o)) /\ snd (spec_step a o) = snd (spec_step b o).
Proof.
  intros a b o Ha Hb H. unfold spec_wf in Ha, Hb.
  pose proof (spec_eq_regs _ _ H) as Hr. pose proof (spec_eq_held _ _ H) as Hh.
  destruct o as [id hold|id f n|id f n at_|id f n at_|id from|id nid|id|id|keep| |id| | |m|m];
    try exact (conj H eq_refl); cbn [spec_step].
  - pose proof (Hr id) as Hi.
    assert (Hh' : held_eq (if hold then id :: sp_held a else sp_held a)
                          (if hold then id :: sp_held b else sp_held b)).
    { destruct hold; [apply held_eq_cons|]; exact Hh. }
    destruct (sget id (sp_regions a)) as [x|], (sget id (sp_regions b)) as [y|];
      try (exfalso; exact Hi); cbn [fst snd]; (split; [|reflexivity]); apply spec_eq_mk; auto.
    apply regs_eq_sput; [exact Hr|repeat split].
  - exact (spec_wr_congr a b id f n None false H).
  - exact (spec_wr_congr a b id f n (Some at_) false H).
  - exact (spec_wr_congr a b id f n (Some at_) true H).
  - apply sp_with_congr; [exact H|intros x y (Hl & Hd & Hp)]. rewrite <- Hl, <- Hp.
    destruct (s_len x <? from) eqn:E; cbn [fst snd]; (split; [|reflexivity]); [exact H|].
    apply spec_eq_mk; [|exact Hh]. apply regs_eq_sput; [exact Hr|].
    split; [reflexivity|split; [|reflexivity]]. cbn [s_len s_data]. intros k Hk. apply Hd. lia.
  - apply sp_with_congr; [exact H|intros x y (Hl & Hd & Hp)]. pose proof (Hr nid) as Hn.
    destruct (sget nid (sp_regions a)) as [x2|], (sget nid (sp_regions b)) as [y2|];
      try (exfalso; exact Hn); cbn [fst snd]; (split; [|reflexivity]); [exact H|].
    apply spec_eq_mk; [|apply held_eq_map; exact Hh].
    apply regs_eq_sput; [apply regs_eq_sdel; exact Hr|]. split; [exact Hl|split; [exact Hd|reflexivity]].
  - apply sp_with_congr; [exact H|intros x y _]. rewrite (proj2 H id).
    destruct (sp_is_held b id); cbn [fst snd]; (split; [|reflexivity]); [exact H|].
    apply spec_eq_mk; [apply regs_eq_sdel; exact Hr|exact Hh].
  - cbn [fst snd]. split; [|reflexivity].
    apply spec_eq_mk; [exact Hr|apply held_eq_filter; exact Hh].
  - rewrite (retain_test_congr a b keep H).
    destruct (existsb _ (sp_regions b)); cbn [fst snd]; (split; [|reflexivity]); [exact H|].
    apply spec_eq_mk;
      [apply (regs_eq_filter_key (fun k => existsb (fun y => y =? k) keep)); exact Hr
      |apply held_eq_filter; exact Hh].
  - apply sp_with_congr; [exact H|intros x y (_ & _ & Hp)]. rewrite Hp. split; [exact H|reflexivity].
  - cbn [fst snd]. split; [|reflexivity].
    apply spec_eq_mk; [apply regs_eq_filter_persisted; assumption | intros i; reflexivity].
Qed.

Fixpoint spec_run (sp : spec) (ops : list op) : spec :=
  match ops with [] => sp | o :: t => spec_run (fst (spec_step sp o)) t end.
Fixpoint spec_results (sp : spec) (ops : list op) : list (res aerr out) :=
  match ops with
  | [] => []
  | o :: t => snd (spec_step sp o) :: spec_results (fst (spec_step sp o)) t
  end.

Theorem spec_run_wf : forall ops sp, spec_wf sp -> spec_wf (spec_run sp ops).
Proof.
  induction ops as [|o t IH]; intros sp H; cbn [spec_run]; [exact H|].
  apply IH. apply spec_step_wf. exact H.
Qed.

Theorem spec_run_congr : forall ops a b, spec_wf a -> spec_wf b -> spec_eq a b ->
  spec_eq (spec_run a ops) (spec_run b ops) /\ spec_results a ops = spec_results b ops.
Proof.
  induction ops as [|o t IH]; intros a b Ha Hb H; cbn [spec_run spec_results].
  - split; [exact H|reflexivity].
  - destruct (spec_step_congr a b o Ha Hb H) as [H1 H2].
    destruct (IH _ _ (spec_step_wf a o Ha) (spec_step_wf b o Hb) H1) as [H3 H4].
    split; [exact H3|]. rewrite H2, H4. reflexivity.
Qed.

Example spec_run_init_wf ops : spec_wf (spec_run sp_init ops).
Proof. apply spec_run_wf. exact spec_wf_init. Qed.
