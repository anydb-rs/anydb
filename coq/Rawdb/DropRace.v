(* Fine-grained model of `Drop for Database` (lib.rs:720-726) for C18.

     impl Drop for Database { fn drop(&mut self) {
         if Arc::strong_count(&self.0) == 1 { let _ = self.sync_bg_tasks(); }     (* step READ  *)
     } }                                                                         (* then the field
     `Arc<DatabaseInner>` is dropped: fetch_sub; at zero DatabaseInner drops and closes both Files *)
                                                                                 (* step DEC   *)
   run_bg (lib.rs:460-469) hands the closure a handle made with Arc::from_raw inside ManuallyDrop:
   a background task is NOT counted by the Arc; only the join in READ (when the count is 1) makes
   the instance outlive it.  READ and DEC are two separate atomic actions; Rawdb/OpenLock.v treats
   them as one step (`drop_strong`).  Here they are separate and several droppers may sit between
   their READ and their DEC.

   The full statement `bg_extends_lifetime_full`, "a running background task implies the locks are
   still held", is REFUTED for two handles dropped concurrently (`bg_extends_lifetime_refuted`: both
   READ 2, nobody joins, the count goes to 0), and PROVED for histories in which every drop is atomic
   (READ immediately followed by its DEC: `bg_extends_lifetime_atomic`, over `AInv`). *)
From Anydb Require Import Common.Base Gen.OpenOrder.

Record ds : Set := mkDs {
  d_strong : N;            (* Arc strong count *)
  d_bg : N;                (* run_bg closures still running *)
  d_locked : bool;         (* DatabaseInner alive = both Files open = both advisory locks held *)
  d_pend : list bool       (* droppers between READ and DEC; true = read count == 1, sits in sync_bg_tasks *)
}.

Inductive dop : Set :=
| DRead                    (* some handle's Drop::drop evaluates Arc::strong_count(&self.0) == 1 *)
| DDec (n : nat)           (* the n-th pending dropper finishes: (join done,) Arc decrement *)
| DFinishBg.               (* a background closure returns *)

Fixpoint remove_nth {A} (n : nat) (l : list A) : list A :=
  match l, n with
  | [], _ => []
  | _ :: r, O => r
  | a :: r, S m => a :: remove_nth m r
  end.

Definition dstep (s : ds) (o : dop) : ds :=
  match o with
  | DRead =>
      (* a handle that is not yet being dropped *)
      if len (d_pend s) <? d_strong s
      then mkDs (d_strong s) (d_bg s) (d_locked s) (d_pend s ++ [d_strong s =? drop_joins_bg_at_strong_count])
      else s
  | DDec n =>
      match nth_error (d_pend s) n with
      | None => s
      | Some joins =>
          if joins && (0 <? d_bg s) then s      (* blocked in handle.join() *)
          else let c := d_strong s - 1 in
               mkDs c (d_bg s) (if c =? 0 then false else d_locked s) (remove_nth n (d_pend s))
      end
  | DFinishBg => mkDs (d_strong s) (d_bg s - 1) (d_locked s) (d_pend s)
  end.

Definition drun (s : ds) (h : list dop) : ds := fold_left dstep h s.
Definition dinit (handles bg : N) : ds := mkDs handles bg true [].

(* FULL statement: background tasks extend the holder's lifetime *)
Definition bg_extends_lifetime_full : Prop :=
  forall handles bg h, 0 < handles -> let s := drun (dinit handles bg) h in 0 < d_bg s -> d_locked s = true.

(* the witness: two handles, one task; READ READ DEC DEC *)
Definition race_witness : list dop := [DRead; DRead; DDec 0; DDec 0].

Lemma bg_extends_lifetime_refuted :
  exists handles bg h, 0 < handles /\ 0 < d_bg (drun (dinit handles bg) h) /\ d_locked (drun (dinit handles bg) h) = false.
Proof. exists 2, 1, race_witness. vm_compute. repeat split; reflexivity. Qed.

Lemma bg_extends_lifetime_full_is_false : ~ bg_extends_lifetime_full.
Proof.
  intro H. destruct bg_extends_lifetime_refuted as (hd & bg & h & Hh & Hb & Hl).
  rewrite (H hd bg h Hh Hb) in Hl. discriminate Hl.
Qed.

(* PARTIAL: histories in which every drop is atomic — each READ is immediately followed by the DEC
   of the dropper it created (which is a no-op while that dropper is blocked in the join; a blocked
   dropper may retry later with `DDec 0`). *)
Inductive ablock : Set := ADrop | ARetry | AFinish.
Definition expand (b : ablock) (s : ds) : list dop :=
  match b with
  | ADrop => [DRead; DDec (length (d_pend s))]
  | ARetry => [DDec 0]
  | AFinish => [DFinishBg]
  end.
Fixpoint arun (s : ds) (h : list ablock) : ds :=
  match h with [] => s | b :: r => arun (drun s (expand b s)) r end.

Definition AInv (s : ds) : Prop :=
  (d_locked s = true <-> 0 < d_strong s) /\
  (d_pend s = [] \/ (d_pend s = [true] /\ d_strong s = 1)) /\
  (0 < d_bg s -> 0 < d_strong s).

(* the two shapes of the invariant: nobody between READ and DEC; one dropper, the last, in the join *)
Lemma AInv_idle c bg lk : (lk = true <-> 0 < c) -> (0 < bg -> 0 < c) -> AInv (mkDs c bg lk []).
Proof. intros HL HB. split; [exact HL|]. split; [left; reflexivity|exact HB]. Qed.

Lemma AInv_join bg lk : lk = true -> AInv (mkDs 1 bg lk [true]).
Proof. intros ->. unfold AInv; cbn. split; [split; [lia|reflexivity]|]. split; [right; split; reflexivity|lia]. Qed.

Lemma AInv_block s b : AInv s -> AInv (drun s (expand b s)).
Proof.
  intros HI. pose proof HI as (HL & HP & HB). destruct s as [c bg lk pd]. cbn [d_strong d_bg d_locked d_pend] in *.
  destruct HP as [-> | (-> & ->)]; destruct b;
    cbn [expand drun fold_left dstep d_pend d_strong d_bg d_locked length len nth_error app].
  (* nobody pending: ADrop, ARetry, AFinish; then the last dropper in the join: the same three *)
  - (* no handle left; the last handle, joining or not; one of several *)
    change (len (@nil bool)) with 0. unfold drop_joins_bg_at_strong_count.
    destruct (N.ltb_spec 0 c) as [Hc|Hc]; cbn [d_pend d_strong d_bg d_locked nth_error app]; [|exact HI].
    destruct (N.eqb_spec c 1) as [->|H1]; cbn [andb].
    + destruct (N.ltb_spec 0 bg) as [Hb|Hb]; cbn [remove_nth].
      * apply AInv_join, HL. lia.
      * apply AInv_idle; cbn; [split; [discriminate|lia]|lia].
    + destruct (N.eqb_spec (c - 1) 0); [lia|]. apply AInv_idle; [|lia]. split; [lia|]. intros _. apply HL. lia.
  - exact HI.
  - apply AInv_idle; [exact HL|lia].
  - (* the joining dropper holds the last handle: no other drop starts *) exact HI.
  - destruct (N.ltb_spec 0 bg) as [Hb|Hb]; cbn [andb remove_nth]; [exact HI|].
    apply AInv_idle; cbn; [split; [discriminate|lia]|lia].
  - apply AInv_join, HL. lia.
Qed.

Lemma AInv_init handles bg : 0 < handles -> AInv (dinit handles bg).
Proof. intro H. apply AInv_idle; [split; [intros _; exact H|reflexivity]|intros _; exact H]. Qed.

Lemma AInv_arun s h : AInv s -> AInv (arun s h).
Proof. revert s. induction h as [| b h IH]; intros s HI; [exact HI |]. cbn [arun]. apply IH, AInv_block, HI. Qed.

Lemma bg_extends_lifetime_atomic : forall handles bg h, 0 < handles ->
  0 < d_bg (arun (dinit handles bg) h) -> d_locked (arun (dinit handles bg) h) = true.
Proof.
  intros handles bg h Hh Hbg. destruct (AInv_arun _ h (AInv_init handles bg Hh)) as ((_ & HL2) & _ & HB).
  apply HL2, HB, Hbg.
Qed.
