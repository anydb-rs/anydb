(* Rawdb/HolesFacts.v — the two hole maps start_to_hole / hole_to_starts as a pair: `holes_ok`
   follows from Inv (`inv_holes_ok`) and is closed under every way the layout edits its holes, up to
   remove_or_compress_hole (`roc_holes_ok`), without reading the rest of the state. *)
From Coq Require Import Permutation.
From Anydb Require Import Common.Base Gen.Consts Rawdb.AMap Rawdb.Alloc Rawdb.AllocInv
  Rawdb.AMapFacts Rawdb.CoverFacts Rawdb.InvReopenAux.
From Anydb Require Export Rawdb.InvFacts.

Definition holes_wf (h : amap N) (q : amap (list N)) : Prop := asorted h /\ asorted q /\ agrees h q.

Definition bucket (q : amap (list N)) (z : N) : list N := match aget z q with Some l => l | None => [] end.

Lemma in_bucket q z a : (exists l, aget z q = Some l /\ In a l) <-> In a (bucket q z).
Proof.
  unfold bucket. destruct (aget z q) as [l|]; split.
  - intros (l' & [= <-] & HI). exact HI.
  - intros HI. eauto.
  - intros (l' & [=] & _).
  - intros [].
Qed.

Lemma aget_h2s_push q z a size :
  aget size (h2s_push q z a) = if size =? z then Some (bucket q z ++ [a]) else aget size q.
Proof. unfold h2s_push, bucket. destruct (aget z q); apply aget_ains. Qed.

Lemma aget_h2s_drop q z a size :
  asorted q ->
  aget size (h2s_drop q z a) =
  if size =? z then match filter (fun x => negb (x =? a)) (bucket q z) with [] => None | l => Some l end
  else aget size q.
Proof.
  intros Hs. unfold h2s_drop, bucket. destruct (aget z q) as [l|] eqn:E.
  - destruct (filter _ l); [now apply aget_arem|apply aget_ains].
  - destruct (N.eqb_spec size z) as [->|]; [exact E|reflexivity].
Qed.

Lemma bucket_push q z a size : bucket (h2s_push q z a) size = if size =? z then bucket q z ++ [a] else bucket q size.
Proof. unfold bucket at 1. rewrite aget_h2s_push. now destruct (size =? z). Qed.

Lemma bucket_drop q z a size :
  asorted q ->
  bucket (h2s_drop q z a) size = if size =? z then filter (fun x => negb (x =? a)) (bucket q z) else bucket q size.
Proof.
  intros Hs. unfold bucket at 1. rewrite aget_h2s_drop by exact Hs.
  destruct (size =? z); [now destruct (filter _ _)|reflexivity].
Qed.

Lemma nodup_bucket h q z : agrees h q -> NoDup (bucket q z).
Proof. intros [_ Hne]. unfold bucket. destruct (aget z q) as [l|] eqn:E; [apply (Hne z l E)|constructor]. Qed.

Lemma holes_wf_insert h q a z : holes_wf h q -> aget a h = None -> holes_wf (ains a z h) (h2s_push q z a).
Proof.
  intros (Hsh & Hsq & Hag) Hnone. split; [now apply asorted_ains|].
  split. { unfold h2s_push. destruct (aget z q); now apply asorted_ains. }
  pose proof (nodup_bucket h q z Hag) as Hnd. destruct Hag as [Hag Hne].
  assert (Hna : ~ In a (bucket q z)) by (intros HI; apply in_bucket, Hag in HI; congruence).
  split.
  - intros start size. rewrite in_bucket, bucket_push, aget_ains. specialize (Hag start size). rewrite in_bucket in Hag.
    destruct (N.eqb_spec start a) as [->|Hsa], (N.eqb_spec size z) as [->|Hsz]; rewrite ?in_app_iff; cbn [In].
    + split; auto.
    + rewrite <- Hag, Hnone. split; congruence.
    + rewrite Hag. split; [auto|]. intros [H|[H|[]]]; [exact H|congruence].
    + exact Hag.
  - intros size l. rewrite aget_h2s_push. destruct (size =? z); [|apply Hne].
    intros [= <-]. split; [destruct (bucket q z); discriminate|].
    apply (Permutation_NoDup (Permutation_cons_append _ a)). now constructor.
Qed.

Lemma holes_wf_remove h q a z : holes_wf h q -> aget a h = Some z -> holes_wf (arem a h) (h2s_drop q z a).
Proof.
  intros (Hsh & Hsq & Hag) Hsome. split; [now apply asorted_arem|].
  split. { unfold h2s_drop. destruct (aget z q) as [l|]; [|exact Hsq]. destruct (filter _ l); [now apply asorted_arem|now apply asorted_ains]. }
  pose proof (nodup_bucket h q z Hag) as Hnd. destruct Hag as [Hag Hne].
  split.
  - intros start size. rewrite in_bucket, bucket_drop, aget_arem by assumption.
    specialize (Hag start size). rewrite in_bucket in Hag.
    destruct (N.eqb_spec start a) as [->|Hsa], (N.eqb_spec size z) as [->|Hsz]; rewrite ?filter_In.
    + rewrite N.eqb_refl. split; [discriminate|intros [_ [=]]].
    + rewrite <- Hag, Hsome. split; congruence.
    + rewrite Hag. destruct (N.eqb_spec start a); [contradiction|]. split; [auto|intros [H _]; exact H].
    + exact Hag.
  - intros size l. rewrite aget_h2s_drop by assumption. destruct (size =? z); [|apply Hne].
    destruct (filter _ (bucket q z)) as [|y t] eqn:Efl; [discriminate|].
    intros [= <-]. split; [discriminate|]. rewrite <- Efl. now apply NoDup_filter.
Qed.

(* third clause: a gap before each next hole, so neither overlapping nor adjacent *)
Definition holes_ok (H : amap N) (Q : amap (list N)) : Prop :=
  holes_wf H Q
  /\ (forall a z, aget a H = Some z -> aligned (a, z))
  /\ (forall a z a' z', aget a H = Some z -> aget a' H = Some z' -> a < a' -> a + z < a').

Lemma holes_ok_sorted H Q : holes_ok H Q -> asorted H.
Proof. intros ((S & _) & _). exact S. Qed.
Lemma holes_ok_sorted_sizes H Q : holes_ok H Q -> asorted Q.
Proof. intros ((_ & S & _) & _). exact S. Qed.
Lemma holes_ok_agrees H Q : holes_ok H Q -> agrees H Q.
Proof. intros ((_ & _ & A) & _). exact A. Qed.
Lemma holes_ok_aligned H Q a z : holes_ok H Q -> aget a H = Some z -> aligned (a, z).
Proof. intros (_ & Hal & _). apply Hal. Qed.
Lemma holes_ok_pos H Q a z : holes_ok H Q -> aget a H = Some z -> 0 < z.
Proof. intros Hok Hg. apply (holes_ok_aligned H Q a z Hok Hg). Qed.
Lemma holes_ok_sep H Q a z a' z' :
  holes_ok H Q -> aget a H = Some z -> aget a' H = Some z' -> a < a' -> a + z < a'.
Proof. intros (_ & _ & Hsep). apply Hsep. Qed.

Arguments holes_ok_sorted {H Q}.
Arguments holes_ok_sorted_sizes {H Q}.
Arguments holes_ok_agrees {H Q}.
Arguments holes_ok_aligned {H Q a z}.
Arguments holes_ok_pos {H Q a z}.
Arguments holes_ok_sep {H Q a z a' z'}.

Lemma holes_ok_nil : holes_ok [] [].
Proof. split; [exact (conj I (conj I agrees_nil))|]. split; discriminate. Qed.

Lemma holes_ok_noadj H Q a z a' z' :
  holes_ok H Q -> aget a H = Some z -> aget a' H = Some z' -> a + z <> a'.
Proof.
  intros (_ & Hal & Hsep) H1 H2. destruct (Hal _ _ H1) as (_ & _ & Hp). cbn [snd] in Hp.
  destruct (N.lt_ge_cases a a') as [Hlt|Hge]; [pose proof (Hsep _ _ _ _ H1 H2 Hlt)|]; lia.
Qed.

Lemma holes_ok_remove H Q a z : holes_ok H Q -> aget a H = Some z -> holes_ok (arem a H) (h2s_drop Q z a).
Proof.
  intros (Hwf & Hal & Hsep) Hg. pose proof Hwf as (Hs & _).
  assert (Hsub : forall x w, aget x (arem a H) = Some w -> aget x H = Some w).
  { intros x w. rewrite aget_arem by exact Hs. destruct (x =? a); [discriminate|auto]. }
  split; [now apply holes_wf_remove|]. split; [intros x w Hx; apply Hal; auto|].
  intros x w x' w' Hx Hx'. exact (Hsep _ _ _ _ (Hsub _ _ Hx) (Hsub _ _ Hx')).
Qed.

Definition far (H : amap N) (a z : N) : Prop := forall x w, aget x H = Some w -> x + w < a \/ a + z < x.

Lemma far_absent H a z : far H a z -> aget a H = None.
Proof. intros Hf. destruct (aget a H) as [w|] eqn:E; [|reflexivity]. destruct (Hf _ _ E); lia. Qed.

Lemma holes_ok_insert H Q a z :
  holes_ok H Q -> aligned (a, z) -> far H a z -> holes_ok (ains a z H) (h2s_push Q z a).
Proof.
  intros (Hwf & Hal & Hsep) Ha Hf.
  split; [apply holes_wf_insert; [exact Hwf|exact (far_absent _ _ _ Hf)]|]. split.
  - intros x w. rewrite aget_ains. destruct (N.eqb_spec x a) as [->|_]; [intros [= <-]; exact Ha|apply Hal].
  - intros x w x' w'. rewrite !aget_ains.
    destruct (N.eqb_spec x a) as [->|_], (N.eqb_spec x' a) as [->|_].
    + lia.
    + intros [= <-] Hx' Hlt. destruct (Hf _ _ Hx'); lia.
    + intros Hx [= <-] Hlt. destruct (Hf _ _ Hx); lia.
    + apply Hsep.
Qed.

Lemma roc_holes_ok s a p z :
  holes_ok (holes s) (h2s s) -> aget a (holes s) = Some z -> p mod PAGE_SIZE = 0 -> p <= z ->
  exists H Q, remove_or_compress_hole s a p = AOk (set_holes s H Q) /\ holes_ok H Q
    /\ (forall x, (owners H x + cov (a, p) x = owners (holes s) x)%nat).
Proof.
  intros Hok Hg Hmod Hle. pose proof (holes_ok_remove _ _ a z Hok Hg) as Hok1.
  pose proof (holes_ok_sorted Hok) as Hs.
  pose proof (aligned_rest a p z (holes_ok_aligned Hok Hg) Hmod) as Har. clear Hmod.
  unfold remove_or_compress_hole, remove_hole. rewrite Hg.
  destruct (N.eqb_spec z p) as [->|Hne].
  - do 2 eexists. split; [reflexivity|]. split; [exact Hok1|]. intros x. now apply owners_arem.
  - destruct (N.ltb_spec p z) as [Hlt|]; [|lia].
    assert (Hf : far (arem a (holes s)) (a + p) (z - p)).
    { intros x w. rewrite aget_arem by exact Hs. destruct (N.eqb_spec x a) as [|Hxa]; [discriminate|]. intros Hx.
      destruct (N.lt_ge_cases x a) as [Hl|Hl]; [pose proof (holes_ok_sep Hok Hx Hg Hl); lia|].
      assert (Hl' : a < x) by lia. pose proof (holes_ok_sep Hok Hg Hx Hl'). lia. }
    exists (ains (a + p) (z - p) (arem a (holes s))), (h2s_push (h2s_drop (h2s s) z a) (z - p) (a + p)).
    split; [reflexivity|]. split; [apply holes_ok_insert; auto|].
    intros x. rewrite owners_ains_absent by exact (far_absent _ _ _ Hf).
    pose proof (owners_arem a z (holes s) x Hg) as Ho. rewrite (cov_split a p z x Hle) in Ho. lia.
Qed.

Lemma inv_holes_ok s : Inv s -> holes_ok (holes s) (h2s s).
Proof.
  intros HI. pose proof (fun a z => inv_hole_aligned s a z HI) as Hal.
  split; [exact (conj (inv_sorted_holes s HI) (conj (inv_sorted_h2s s HI) (proj1 (h2s_agrees_agrees s) (inv_h2s s HI))))|].
  split; [exact Hal|].
  intros a z a' z' H1 H2 Hlt.
  destruct (Hal _ _ H1) as (_ & _ & Hp1), (Hal _ _ H2) as (_ & _ & Hp2).
  pose proof (inv_no_adjacent_holes s HI _ _ _ _ H1 H2) as Hadj.
  destruct (inv_disjoint s (a, z) (a', z') HI Hp1 Hp2) as [Hd|Hd]; cbn [fst snd] in *; [|lia|lia].
  intros x. rewrite owners_extents.
  assert (Hne : (a, z) <> (a', z')) by (intros [= -> _]; lia).
  pose proof (owners_in2 _ _ (holes s) x (aget_in _ _ _ H1) (aget_in _ _ _ H2) Hne). lia.
Qed.
