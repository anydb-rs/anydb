(* Rawdb/InvBool.v — an EXECUTABLE checker `inv_b` for `Inv`, one checker per clause, each proved to
   decide its clause, hence `inv_b s = true <-> Inv s`: a `false` verdict on a real state is a proven
   violation of `Inv`.  Meant to be extracted and run on real allocator states: recursion is over the
   lists only, indices and addresses stay in N (no `N.to_nat` of a value read from the state), worst case
   quadratic in the number of extents. *)
From Anydb Require Import Common.Base Gen.Consts Rawdb.AMap Rawdb.Alloc Rawdb.AllocInv
  Rawdb.AMapFacts Rawdb.CoverFacts Rawdb.InvLayout.

Lemma nth_opt_in {A} (l : list A) n x : nth_opt l n = Some x -> In x l.
Proof. rewrite nth_opt_nth_error. apply nth_error_In. Qed.

Lemma in_nth_opt {A} (l : list A) x : In x l -> exists n, nth_opt l n = Some x.
Proof. intros HI. apply In_nth_error in HI. destruct HI as [n Hn]. exists n. now rewrite nth_opt_nth_error. Qed.

Fixpoint nthN {A} (l : list A) (i : N) : option A :=
  match l with
  | [] => None
  | x :: t => if i =? 0 then Some x else nthN t (i - 1)
  end.

Lemma nthN_get {A} (l : list A) i : nthN l i = get l i.
Proof.
  unfold get. revert i. induction l as [|h t IH]; intros i; cbn [nthN].
  - destruct (N.to_nat i); reflexivity.
  - destruct (i =? 0) eqn:E.
    + replace (N.to_nat i) with O by lia. reflexivity.
    + rewrite IH. replace (N.to_nat i) with (S (N.to_nat (i - 1))) by lia. reflexivity.
Qed.

Definition slotN (s : st) (i : N) : option rmeta :=
  match nthN (slots s) i with Some (Some m) => Some m | _ => None end.

Lemma slotN_eq s i : slotN s i = slot s i.
Proof. unfold slotN, slot. rewrite nthN_get. reflexivity. Qed.

Fixpoint forallb_i {A} (f : N -> A -> bool) (l : list A) (i : N) : bool :=
  match l with
  | [] => true
  | x :: t => f i x && forallb_i f t (i + 1)
  end.

Lemma forallb_i_iff {A} (f : N -> A -> bool) l i0 :
  forallb_i f l i0 = true <-> forall n x, nth_opt l n = Some x -> f (i0 + N.of_nat n) x = true.
Proof.
  revert i0. induction l as [|h t IH]; intros i0; cbn [forallb_i].
  - split; [intros _ [|n] x; discriminate|reflexivity].
  - rewrite andb_true_iff, IH. split.
    + intros [H1 H2] [|n] x; cbn [nth_opt].
      * intros [= <-]. now rewrite N.add_0_r.
      * intros Hn. replace (i0 + N.of_nat (S n)) with (i0 + 1 + N.of_nat n) by lia. auto.
    + intros H. split; [rewrite <- (N.add_0_r i0); now apply (H O)|].
      intros n x Hn. replace (i0 + 1 + N.of_nat n) with (i0 + N.of_nat (S n)) by lia. now apply H.
Qed.

Fixpoint mem_b (x : N) (l : list N) : bool :=
  match l with [] => false | y :: t => (x =? y) || mem_b x t end.

Fixpoint nodup_b (l : list N) : bool :=
  match l with [] => true | x :: t => negb (mem_b x t) && nodup_b t end.

Lemma mem_b_in x l : mem_b x l = true <-> In x l.
Proof.
  induction l as [|y t IH]; cbn [mem_b In].
  - split; [discriminate|intros []].
  - rewrite orb_true_iff, IH, N.eqb_eq. split; (intros [H|H]; [left; congruence|right; exact H]).
Qed.

Lemma nodup_b_iff l : nodup_b l = true <-> NoDup l.
Proof.
  induction l as [|x t IH]; cbn [nodup_b]; [split; [constructor|reflexivity]|].
  rewrite andb_true_iff, negb_true_iff, IH, <- not_true_iff_false, mem_b_in. split.
  - intros [H1 H2]. now constructor.
  - intros H. inversion H. auto.
Qed.

Fixpoint asorted_b {V} (m : amap V) : bool :=
  match m with
  | [] => true
  | (k, _) :: t => (match t with [] => true | (k', _) :: _ => k <? k' end) && asorted_b t
  end.

Lemma asorted_b_iff {V} (m : amap V) : asorted_b m = true <-> asorted m.
Proof.
  induction m as [|[k v] t IH]; [split; [intros _; exact I|reflexivity]|].
  cbn [asorted_b asorted]. rewrite andb_true_iff, IH.
  destruct t as [|[k' v'] t']; [|rewrite N.ltb_lt]; tauto.
Qed.

Definition sorted_b (s : st) : bool :=
  asorted_b (s2r s) && asorted_b (holes s) && asorted_b (pend s) && asorted_b (resv s)
  && asorted_b (h2s s).

Lemma sorted_b_iff s :
  sorted_b s = true <->
  asorted (s2r s) /\ asorted (holes s) /\ asorted (pend s) /\ asorted (resv s) /\ asorted (h2s s).
Proof. unfold sorted_b. rewrite !andb_true_iff, !asorted_b_iff. tauto. Qed.

Definition aligned1_b (e : ext) : bool :=
  (fst e mod PAGE_SIZE =? 0) && (snd e mod PAGE_SIZE =? 0) && (0 <? snd e).

Definition aligned_b (s : st) : bool := forallb aligned1_b (extents s).

Lemma aligned_b_iff s : aligned_b s = true <-> Forall aligned (extents s).
Proof.
  unfold aligned_b. rewrite forallb_forall, Forall_forall.
  assert (H1 : forall e, aligned1_b e = true <-> aligned e).
  { intros e. unfold aligned1_b, aligned. rewrite !andb_true_iff, !N.eqb_eq, N.ltb_lt. tauto. }
  split; intros H e HI; apply H1; auto.
Qed.

(* cover: sort the extents by start, then sweep *)
Fixpoint ins_ext (e : ext) (l : list ext) : list ext :=
  match l with
  | [] => [e]
  | x :: t => if fst e <=? fst x then e :: l else x :: ins_ext e t
  end.

Fixpoint sort_ext (l : list ext) : list ext :=
  match l with [] => [] | e :: t => ins_ext e (sort_ext t) end.

Fixpoint tiles (l : list ext) (p : N) : option N :=
  match l with
  | [] => Some p
  | (a, z) :: t => if (a =? p) && (0 <? z) then tiles t (p + z) else None
  end.

Lemma owners_ins e l a : owners (ins_ext e l) a = (cov e a + owners l a)%nat.
Proof.
  induction l as [|x t IH]; cbn [ins_ext].
  - rewrite owners_cons. reflexivity.
  - destruct (fst e <=? fst x).
    + rewrite owners_cons. reflexivity.
    + rewrite !owners_cons, IH. lia.
Qed.

Lemma owners_sort l a : owners (sort_ext l) a = owners l a.
Proof.
  induction l as [|e t IH]; cbn [sort_ext]; [reflexivity|].
  rewrite owners_ins, owners_cons, IH. reflexivity.
Qed.

Lemma tiles_owners l :
  forall p L, tiles l p = Some L ->
    p <= L /\ forall a, (owners l a + (if (a <? p)%N then 1 else 0))%nat = if a <? L then 1%nat else 0%nat.
Proof.
  induction l as [|[a0 z] t IH]; intros p L; cbn [tiles].
  - intros [= <-]. split; [lia|]. intros a. now rewrite owners_nil.
  - destruct ((a0 =? p) && (0 <? z)) eqn:E; [|discriminate]. intros H.
    destruct (IH _ _ H) as [Hle Ho]. split; [lia|]. intros a.
    rewrite owners_cons, <- Ho, below_app. replace a0 with p by lia. lia.
Qed.

Fixpoint esorted (l : list ext) : Prop :=
  match l with
  | [] => True
  | e :: t => (forall x, In x t -> fst e <= fst x) /\ esorted t
  end.

Lemma in_ins_ext x e l : In x (ins_ext e l) <-> x = e \/ In x l.
Proof.
  induction l as [|y t IH]; cbn [ins_ext]; [cbn [In]; intuition auto|].
  destruct (fst e <=? fst y); cbn [In]; [|rewrite IH]; intuition auto.
Qed.

Lemma esorted_sort l : esorted (sort_ext l) /\ forall x, In x (sort_ext l) <-> In x l.
Proof.
  induction l as [|e t [IH1 IH2]]; cbn [sort_ext]; [split; [exact I|tauto]|].
  split; [|intros x; rewrite in_ins_ext, IH2; cbn [In]; intuition auto].
  clear IH2. induction (sort_ext t) as [|y u IHu]; cbn [ins_ext esorted] in *; [split; [intros x []|exact I]|].
  destruct IH1 as [H1 H2]. destruct (N.leb_spec (fst e) (fst y)).
  - cbn [esorted]. split; [|auto]. intros x [<-|HI]; [assumption|]. specialize (H1 _ HI). lia.
  - cbn [esorted]. split; [|auto]. intros x HI. apply in_ins_ext in HI. destruct HI as [->|HI]; [lia|auto].
Qed.

Lemma tiles_complete l :
  forall p L, esorted l -> (forall e, In e l -> 0 < snd e) -> p <= L ->
    (forall a, (owners l a + (if (a <? p)%N then 1 else 0))%nat = if a <? L then 1%nat else 0%nat) ->
    tiles l p = Some L.
Proof.
  induction l as [|[a0 z] t IH]; intros p L Hs Hpos Hle Ho; cbn [tiles].
  - f_equal. destruct (N.eq_dec p L) as [|Hne]; [assumption|]. specialize (Ho p).
    rewrite owners_nil in Ho. destruct (p <? p) eqn:E1, (p <? L) eqn:E2; lia.
  - cbn [esorted] in Hs. destruct Hs as [Hlb Hs].
    assert (Hz : 0 < z) by (apply (Hpos (a0, z)); left; reflexivity).
    (* probe the cover equation at a0 (owned by the head, so p <= a0 < L) and, were p < a0, at p
       (then owned by some extent, which by sortedness starts at or after a0: none) *)
    assert (Ha0 : a0 = p).
    { pose proof (Ho a0) as H0. rewrite owners_cons in H0.
      rewrite (cov_true (a0, z)) in H0 by (unfold covers; cbn [fst snd]; lia).
      destruct (N.ltb_spec a0 p), (N.ltb_spec a0 L); try lia.
      destruct (N.eq_dec a0 p) as [|Hne]; [assumption|exfalso].
      pose proof (Ho p) as Hp. destruct (N.ltb_spec p p), (N.ltb_spec p L); try lia.
      destruct (owners_pos_ex (@cons ext (a0, z) t) p) as (e & HI & Hc); [lia|].
      unfold covers in Hc. destruct HI as [<-|HI]; [cbn [fst snd] in Hc; lia|].
      specialize (Hlb _ HI). cbn [fst] in Hlb. lia. }
    subst a0.
    (* probe at the head's last byte *)
    assert (Hend : p + z <= L).
    { pose proof (Ho (p + z - 1)) as H1. rewrite owners_cons in H1.
      rewrite (cov_true (p, z)) in H1 by (unfold covers; cbn [fst snd]; lia).
      destruct (p + z - 1 <? L) eqn:E; lia. }
    replace ((p =? p) && (0 <? z)) with true by lia.
    apply IH; auto.
    { intros e HI. apply Hpos. right. exact HI. }
    intros a. rewrite <- Ho, owners_cons, below_app. lia.
Qed.

(* the slot is looked up by `slotN`: no `N.to_nat` of an index read from start_to_region, so a corrupt
   table cannot make the extracted checker diverge *)
Definition last_region_endN (s : st) : N :=
  match alast (s2r s) with
  | Some (a, i) => match slotN s i with Some m => a + r_reserved m | None => 0 end
  | None => 0
  end.

Definition layout_lenN (s : st) : N :=
  N.max (N.max (N.max (last_end (resv s)) (last_end (holes s))) (last_end (pend s)))
        (last_region_endN s).

Lemma layout_lenN_eq s : layout_lenN s = layout_len s.
Proof.
  unfold layout_lenN, layout_len, last_region_endN, last_region_end.
  destruct (alast (s2r s)) as [[a i]|]; [|reflexivity]. rewrite slotN_eq. reflexivity.
Qed.

Definition cover_b (s : st) : bool :=
  match tiles (sort_ext (extents s)) 0 with
  | Some L => L =? layout_lenN s
  | None => false
  end.

Lemma cover_b_iff s :
  Forall aligned (extents s) ->
  cover_b s = true <-> forall a, owners (extents s) a = if a <? layout_len s then 1%nat else 0%nat.
Proof.
  intros Hal. unfold cover_b. rewrite layout_lenN_eq. destruct (esorted_sort (extents s)) as [Hs Hin].
  assert (Hz : forall a, (owners (sort_ext (extents s)) a + (if (a <? 0)%N then 1 else 0))%nat = owners (extents s) a).
  { intros a. rewrite owners_sort. destruct (N.ltb_spec a 0); lia. }
  split.
  - destruct (tiles (sort_ext (extents s)) 0) as [L|] eqn:E; [|discriminate].
    intros H a. apply N.eqb_eq in H. destruct (tiles_owners _ _ _ E) as [_ Ho]. now rewrite <- H, <- Ho, Hz.
  - intros Hc. rewrite (tiles_complete _ 0 (layout_len s) Hs); [apply N.eqb_refl| |apply N.le_0_l|].
    + intros e HI. apply Hin in HI. rewrite Forall_forall in Hal. apply (Hal e HI).
    + intros a. now rewrite Hz.
Qed.

Definition len1_b (o : option rmeta) : bool :=
  match o with
  | Some m => (r_len m <=? r_reserved m) && (r_reserved m <=? MAX_RESERVED_SIZE)
  | None => true
  end.

Definition len_b (s : st) : bool := forallb len1_b (slots s).

Lemma len_b_iff s :
  len_b s = true <->
  forall i m, slot s i = Some m -> r_len m <= r_reserved m /\ r_reserved m <= MAX_RESERVED_SIZE.
Proof.
  unfold len_b. rewrite forallb_forall. split.
  - intros H i m Hs. specialize (H _ (slot_in_slots _ _ _ Hs)). cbn [len1_b] in H.
    now rewrite andb_true_iff, !N.leb_le in H.
  - intros H [m|] HI; [|reflexivity]. destruct (in_slots_slot _ _ HI) as [i Hi]. cbn [len1_b].
    rewrite andb_true_iff, !N.leb_le. eauto.
Qed.

Definition s2r_fwd1_b (s : st) (p : N * N) : bool :=
  match slotN s (snd p) with Some m => r_start m =? fst p | None => false end.

Definition s2r_bwd1_b (q : amap N) (i : N) (o : option rmeta) : bool :=
  match o with
  | Some m => match aget (r_start m) q with Some j => j =? i | None => false end
  | None => true
  end.

Definition s2r_b (s : st) : bool :=
  forallb (s2r_fwd1_b s) (s2r s) && forallb_i (s2r_bwd1_b (s2r s)) (slots s) 0.

Lemma s2r_b_iff s :
  asorted (s2r s) ->
  s2r_b s = true <->
  forall a i, aget a (s2r s) = Some i <-> exists m, slot s i = Some m /\ r_start m = a.
Proof.
  intros Hs. unfold s2r_b. rewrite andb_true_iff, forallb_forall, forallb_i_iff. split.
  - intros [Hf Hb] a i. split.
    + intros Hg. specialize (Hf _ (aget_in _ _ _ Hg)). unfold s2r_fwd1_b in Hf. cbn [fst snd] in Hf.
      rewrite slotN_eq in Hf. destruct (slot s i) as [m|]; [|discriminate].
      exists m. split; [reflexivity|lia].
    + intros (m & Hsl & Ha). apply slot_nth in Hsl.
      specialize (Hb _ _ Hsl). cbn [s2r_bwd1_b] in Hb. rewrite Ha in Hb.
      destruct (aget a (s2r s)) as [j|]; [|discriminate]. f_equal. lia.
  - intros Hm. split.
    + intros [a i] HI. unfold s2r_fwd1_b. cbn [fst snd]. rewrite slotN_eq.
      destruct (proj1 (Hm a i) (in_aget _ _ _ Hs HI)) as (m & Hsl & Ha). rewrite Hsl. lia.
    + intros n [m|] Hn; cbn [s2r_bwd1_b]; [|reflexivity].
      assert (Hg : aget (r_start m) (s2r s) = Some (N.of_nat n)).
      { apply Hm. exists m. split; [|reflexivity]. apply slot_nth. rewrite Nat2N.id. exact Hn. }
      rewrite Hg. lia.
Qed.

Definition h2s_fwd1_b (q : amap (list N)) (p : N * N) : bool :=
  match aget (snd p) q with Some l => mem_b (fst p) l | None => false end.

Definition h2s_bwd1_b (h : amap N) (p : N * list N) : bool :=
  (match snd p with [] => false | _ :: _ => true end)
  && nodup_b (snd p)
  && forallb (fun start => match aget start h with Some z => z =? fst p | None => false end) (snd p).

Definition h2s_b (s : st) : bool :=
  forallb (h2s_fwd1_b (h2s s)) (holes s) && forallb (h2s_bwd1_b (holes s)) (h2s s).

Lemma h2s_b_iff s : asorted (holes s) -> asorted (h2s s) -> h2s_b s = true <-> h2s_agrees s.
Proof.
  intros Hsh Hsq. unfold h2s_b. rewrite andb_true_iff, !forallb_forall.
  assert (Hbwd : forall size l,
            h2s_bwd1_b (holes s) (size, l) = true <->
            l <> [] /\ NoDup l /\ forall start, In start l -> aget start (holes s) = Some size).
  { intros size l. unfold h2s_bwd1_b. cbn [fst snd]. rewrite !andb_true_iff, nodup_b_iff, forallb_forall.
    assert (H1 : forall start, match aget start (holes s) with Some z => z =? size | None => false end = true
                               <-> aget start (holes s) = Some size).
    { intros start. destruct (aget start (holes s)) as [z|]; [rewrite N.eqb_eq|]; split; congruence. }
    destruct l; [intuition congruence|]. split.
    - intros [[_ H2] H3]. split; [discriminate|]. split; [exact H2|]. intros start HI. now apply H1, H3.
    - intros (_ & H2 & H3). repeat split; [exact H2|]. intros start HI. now apply H1, H3. }
  split.
  - intros [Hf Hb]. split.
    + intros start size. split.
      * intros Hg. specialize (Hf _ (aget_in _ _ _ Hg)). unfold h2s_fwd1_b in Hf. cbn [fst snd] in Hf.
        destruct (aget size (h2s s)) as [l|]; [|discriminate]. exists l. split; [reflexivity|].
        apply mem_b_in. exact Hf.
      * intros (l & Hl & HI). apply (Hbwd size l); [apply Hb; now apply aget_in|exact HI].
    + intros size l Hg. destruct (proj1 (Hbwd size l) (Hb _ (aget_in _ _ _ Hg))) as (H1 & H2 & _). auto.
  - intros [Hag Hne]. split.
    + intros [start size] HI. unfold h2s_fwd1_b. cbn [fst snd].
      destruct (proj1 (Hag start size) (in_aget _ _ _ Hsh HI)) as (l & Hl & HIl). rewrite Hl.
      apply mem_b_in. exact HIl.
    + intros [size l] HI. pose proof (in_aget _ _ _ Hsq HI) as Hg. destruct (Hne _ _ Hg) as [H1 H2].
      apply Hbwd. split; [exact H1|]. split; [exact H2|]. intros start HIs. apply Hag. eauto.
Qed.

Definition noadj_b (s : st) : bool :=
  forallb (fun e => forallb (fun e' => negb (fst e + snd e =? fst e')) (holes s)) (holes s).

Lemma noadj_b_iff s :
  asorted (holes s) ->
  noadj_b s = true <->
  forall a z a' z', aget a (holes s) = Some z -> aget a' (holes s) = Some z' -> a + z <> a'.
Proof.
  intros Hs. unfold noadj_b. rewrite forallb_forall. split.
  - intros H a z a' z' H1 H2. specialize (H _ (aget_in _ _ _ H1)). rewrite forallb_forall in H.
    specialize (H _ (aget_in _ _ _ H2)). cbn [fst snd] in H. lia.
  - intros H [a z] HI. apply forallb_forall. intros [a' z'] HI'. cbn [fst snd].
    specialize (H a z a' z' (in_aget _ _ _ Hs HI) (in_aget _ _ _ Hs HI')). lia.
Qed.

Definition file_b (s : st) : bool := layout_lenN s <=? file_len s.

Lemma file_b_iff s : file_b s = true <-> layout_len s <= file_len s.
Proof. unfold file_b. rewrite layout_lenN_eq. apply N.leb_le. Qed.

Fixpoint live_ids (l : list (option rmeta)) : list N :=
  match l with
  | [] => []
  | Some m :: t => r_id m :: live_ids t
  | None :: t => live_ids t
  end.

Definition ids_b (s : st) : bool := nodup_b (live_ids (slots s)).

Lemma in_live_ids l id :
  In id (live_ids l) <-> exists n m, nth_opt l n = Some (Some m) /\ r_id m = id.
Proof.
  induction l as [|[m0|] t IH]; cbn [live_ids In]; [split; [intros []|intros ([|n] & m & H & _); discriminate]| |];
    rewrite ?IH; split.
  - intros [<-|(n & m & H1 & H2)]; [exists O, m0; split; reflexivity|exists (S n), m; auto].
  - intros ([|n] & m & H1 & H2); cbn [nth_opt] in H1; [left; congruence|right; eauto].
  - intros (n & m & H1 & H2). exists (S n), m. auto.
  - intros ([|n] & m & H1 & H2); cbn [nth_opt] in H1; [discriminate|eauto].
Qed.

Lemma live_ids_nodup l :
  NoDup (live_ids l) <->
  forall n1 n2 m1 m2, nth_opt l n1 = Some (Some m1) -> nth_opt l n2 = Some (Some m2) -> r_id m1 = r_id m2 -> n1 = n2.
Proof.
  induction l as [|[m0|] t IH]; cbn [live_ids].
  - split; [intros _ [|n1]; discriminate|constructor].
  - split.
    + intros Hnd. inversion Hnd as [|x l' Hni Hnd']; subst. rewrite in_live_ids in Hni.
      intros [|n1] [|n2] m1 m2; cbn [nth_opt]; intros H1 H2 He.
      * reflexivity.
      * injection H1 as <-. exfalso. apply Hni. eauto.
      * injection H2 as <-. exfalso. apply Hni. eauto.
      * f_equal. exact (proj1 IH Hnd' n1 n2 m1 m2 H1 H2 He).
    + intros H. constructor.
      * rewrite in_live_ids. intros (n & m & H1 & H2). specialize (H O (S n) m0 m eq_refl H1 (eq_sym H2)). discriminate.
      * apply IH. intros n1 n2 m1 m2 H1 H2 He. specialize (H (S n1) (S n2) m1 m2 H1 H2 He). lia.
  - rewrite IH. split; intros H.
    + intros [|n1] [|n2] m1 m2; cbn [nth_opt]; try discriminate. intros H1 H2 He. f_equal. eauto.
    + intros n1 n2 m1 m2 H1 H2 He. specialize (H (S n1) (S n2) m1 m2 H1 H2 He). lia.
Qed.

Lemma ids_unique_nodup s : ids_unique s <-> NoDup (live_ids (slots s)).
Proof.
  rewrite live_ids_nodup. split.
  - intros Hu n1 n2 m1 m2 H1 H2 He. specialize (Hu (N.of_nat n1) (N.of_nat n2) m1 m2).
    rewrite !slot_nth, !Nat2N.id in Hu. specialize (Hu H1 H2 He). lia.
  - intros H i j mi mj Hi Hj He. apply slot_nth in Hi, Hj. pose proof (H _ _ _ _ Hi Hj He). lia.
Qed.

Lemma ids_b_iff s : ids_b s = true <-> ids_unique s.
Proof. unfold ids_b. rewrite nodup_b_iff. symmetry. apply ids_unique_nodup. Qed.

(* rfile: simultaneous walk over the slot table and the regions file *)
Definition srec_eqb (x y : slotrec) : bool :=
  let '(a, b, c, d) := x in let '(a', b', c', d') := y in
  (a =? a') && (b =? b') && (c =? c') && (d =? d').

Lemma srec_eqb_eq x y : srec_eqb x y = true <-> x = y.
Proof.
  destruct x as [[[a b] c] d], y as [[[a' b'] c'] d']. cbn [srec_eqb].
  rewrite !andb_true_iff, !N.eqb_eq. split; [intros [[[-> ->] ->] ->]; reflexivity|intros [= -> -> -> ->]; auto].
Qed.

(* o: the slot-table entry at an index (None also when out of range);
   r: the regions-file entry at the same index (None when out of range) *)
Definition rf1_b (o : option rmeta) (r : option (option slotrec)) : bool :=
  match o with
  | Some m =>
      if r_state m =? ST_WRITE
      then (match r with Some None => true | _ => false end) && (r_len m =? 0) && (r_dmax m =? 0)
      else match r with
           | Some (Some x) => srec_eqb x (r_start m, r_len m, r_reserved m, r_id m)
           | _ => false
           end
  | None => match r with Some (Some _) => false | _ => true end
  end.

Fixpoint rfile_walk (sl : list (option rmeta)) (rf : list (option slotrec)) : bool :=
  match sl with
  | [] => forallb (fun r => rf1_b None (Some r)) rf
  | o :: t =>
      match rf with
      | [] => rf1_b o None && rfile_walk t []
      | r :: rt => rf1_b o (Some r) && rfile_walk t rt
      end
  end.

Definition rfile_b (s : st) : bool := rfile_walk (slots s) (rfile s).

Definition flat {A} (x : option (option A)) : option A :=
  match x with Some o => o | None => None end.

Lemma rfile_walk_iff sl :
  forall rf, rfile_walk sl rf = true <-> forall n, rf1_b (flat (nth_opt sl n)) (nth_opt rf n) = true.
Proof.
  induction sl as [|o t IH]; intros rf; cbn [rfile_walk].
  - rewrite forallb_forall. cbn [nth_opt flat]. split.
    + intros H n. destruct (nth_opt rf n) as [r|] eqn:E; [|reflexivity]. apply H. eapply nth_opt_in; eauto.
    + intros H r HI. destruct (in_nth_opt _ _ HI) as [n Hn]. specialize (H n). now rewrite Hn in H.
  - destruct rf as [|r rt]; rewrite andb_true_iff, IH; (split; [intros [H1 H2] [|n]; [exact H1|exact (H2 n)]|]);
      intros H; (split; [exact (H O)|intros n; exact (H (S n))]).
Qed.

Lemma rf1_b_iff o r : rf1_b o r = true <-> mirrors1 o r.
Proof.
  destruct o as [m|]; cbn [rf1_b mirrors1]; [destruct (r_state m =? ST_WRITE)|].
  - rewrite !andb_true_iff, !N.eqb_eq. destruct r as [[x|]|]; intuition congruence.
  - destruct r as [[x|]|]; [rewrite srec_eqb_eq|split; discriminate..].
    split; [intros ->; reflexivity|now intros [= ->]].
  - destruct r as [[x|]|]; intuition congruence.
Qed.

Lemma rfile_b_iff s : rfile_b s = true <-> rfile_mirrors s.
Proof.
  unfold rfile_b. rewrite rfile_walk_iff. unfold rfile_mirrors, slot, get. split; intros H.
  - intros i. specialize (H (N.to_nat i)). apply rf1_b_iff in H.
    destruct (nth_opt (slots s) (N.to_nat i)) as [[m|]|]; exact H.
  - intros n. apply rf1_b_iff. specialize (H (N.of_nat n)). rewrite Nat2N.id in H.
    destruct (nth_opt (slots s) n) as [[m|]|]; exact H.
Qed.

Definition resv_b (s : st) : bool := match resv s with [] => true | _ :: _ => false end.

Lemma resv_b_iff s : resv_b s = true <-> resv s = [].
Proof. unfold resv_b. destruct (resv s); split; congruence. Qed.

(* the eleven clause results in the order of the fields of `Inv` (for reporting which one fails) *)
Definition inv_clauses (s : st) : list bool :=
  [aligned_b s; cover_b s; len_b s; s2r_b s; sorted_b s; h2s_b s; noadj_b s; file_b s; ids_b s;
   rfile_b s; resv_b s].

Definition inv_b (s : st) : bool :=
  aligned_b s && cover_b s && len_b s && s2r_b s && sorted_b s && h2s_b s && noadj_b s
  && file_b s && ids_b s && rfile_b s && resv_b s.

Lemma inv_b_clauses s : inv_b s = forallb (fun b => b) (inv_clauses s).
Proof. unfold inv_b, inv_clauses. cbn [forallb]. rewrite andb_true_r, <- !andb_assoc. reflexivity. Qed.

Theorem inv_b_iff : forall s, inv_b s = true <-> Inv s.
Proof.
  intros s. unfold inv_b. rewrite !andb_true_iff, aligned_b_iff, len_b_iff, sorted_b_iff, file_b_iff, ids_b_iff,
    rfile_b_iff, resv_b_iff. split.
  - intros [[[[[[[[[[H1 H2] H3] H4] H5] H6] H7] H8] H9] H10] H11]. pose proof H5 as (S1 & S2 & _ & _ & S5).
    constructor; try assumption; [now apply cover_b_iff|now apply s2r_b_iff|now apply h2s_b_iff|now apply noadj_b_iff].
  - intros [H1 H2 H3 H4 H5 H6 H7 H8 H9 H10 H11]. pose proof H5 as (S1 & S2 & S3 & S4 & S5).
    repeat apply conj; try assumption; [now apply cover_b_iff|now apply s2r_b_iff|now apply h2s_b_iff|now apply noadj_b_iff].
Qed.

Theorem inv_b_sound : forall s, inv_b s = true -> Inv s.
Proof. intros s. apply inv_b_iff. Qed.

Theorem inv_b_complete : forall s, Inv s -> inv_b s = true.
Proof. intros s. apply inv_b_iff. Qed.

Corollary inv_b_false : forall s, inv_b s = false -> ~ Inv s.
Proof. intros s Hf HI. apply inv_b_complete in HI. congruence. Qed.

Example inv_b_init : inv_b (init 0) = true.
Proof. vm_compute. reflexivity. Qed.

Example inv_b_run :
  inv_b (run (init 0) [Create 1 false; Write 1 (gen_byte 1) 5000; Create 2 true; Remove 1; Flush;
                       Create 3 false]) = true.
Proof. vm_compute. reflexivity. Qed.
