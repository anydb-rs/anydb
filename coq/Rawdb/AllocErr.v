(* Rawdb/AllocErr.v — the refusals and panics of the single calls under Inv: a refusal returns the state
   it was given, and only write_with can panic (`write_with_cases`).  The statement over all operations
   is StepOutcome.step_outcome. *)
From Anydb Require Import Common.Base Gen.Consts Rawdb.Alloc Rawdb.AllocSpec Rawdb.AllocInv
  Rawdb.CoverFacts.
From Anydb Require Export Rawdb.AllocOutcome.

Lemma slot_set_resv s v j : slot (set_resv s v) j = slot s j. Proof. reflexivity. Qed.

(* the first doubling that reaches t is below 2 * t (double_until_first), hence within MAX_RESERVED_SIZE *)
Lemma ok_set_reserved_doubled s i m t nr :
  Inv s -> slot s i = Some m -> r_reserved m < t -> t <= MAX_RESERVED_SIZE / 2 ->
  double_until 64 (r_reserved m) t = Ok nr -> ok_set_reserved m nr = true.
Proof.
  intros HI Hs Hlt Ht Hd.
  destruct (inv_len s HI i m Hs) as [Hlen _].
  destruct (inv_region_aligned s i m HI Hs) as (_ & Hmod & Hpos). cbn [fst snd rext] in Hmod, Hpos.
  pose proof (mod0_ge _ _ PAGE_nz Hmod Hpos) as Hpage.
  unfold ok_set_reserved. rewrite (double_until_mod _ _ _ _ Hmod Hd). clear Hmod.
  pose proof (double_until_ge _ _ _ _ Hd) as [Hge1 Hge2].
  assert (Hmax : nr <= MAX_RESERVED_SIZE).
  { destruct (double_until_first _ _ _ _ Hd) as [[_ H]|[_ H]]; [lia|].
    pose proof (N.mul_div_le MAX_RESERVED_SIZE 2). lia. }
  clear Ht Hd.
  destruct (N.leb_spec (r_len m) nr); [|lia]. destruct (N.leb_spec PAGE_SIZE nr); [|lia].
  destruct (N.leb_spec nr MAX_RESERVED_SIZE); [reflexivity|lia].
Qed.

(* the only panic is the assert of RegionMetadata::set_reserved, on a reserve doubled past
   MAX_RESERVED_SIZE *)
Lemma write_with_cases s i m f n at_ tr :
  Inv s -> slot s i = Some m ->
  match write_with s i f n at_ tr with
  | AOk _ => True
  | AErr s' e =>
      s' = s /\
      ((w_oob at_ (r_len m) = true /\ e = WriteOutOfBounds) \/
       (e = RegionSizeOverflow /\ w_oob at_ (r_len m) = false
        /\ double_until 64 (r_reserved m) (w_len at_ tr (r_len m) n) = Err RegionSizeOverflow))
  | APanic => MAX_RESERVED_SIZE / 2 < r_len m + n
  end.
Proof.
  intros HI Hs. rewrite (write_with_unfold s i m f n at_ tr Hs). cbv zeta.
  destruct (w_oob at_ (r_len m)) eqn:Eo; [auto|].
  destruct (w_off_len at_ tr (r_len m) n Eo) as [Hwo Hwn].
  assert (Hnl : w_len at_ tr (r_len m) n <= r_len m + n)
    by (unfold w_oob, w_len in *; destruct at_; [destruct tr|]; lia).
  pose proof (region_end_le s i m HI Hs) as Hend. pose proof (inv_file s HI) as Hfile.
  destruct (inv_len s HI i m Hs) as [Hlen _].
  destruct (N.leb_spec (w_len at_ tr (r_len m) n) (r_reserved m)) as [|Hgrow].
  { unfold db_write. destruct (N.leb_spec (r_start m + w_off at_ (r_len m) + n) (file_len s)); [|lia].
    now destruct (_ =? _). }
  pose proof (region_reserved_pos s i m HI Hs) as Hpos.
  destruct (N.eqb_spec (r_reserved m) 0); [lia|].
  destruct (double_until 64 _ _) as [nr|e0|] eqn:Ed.
  - pose proof (double_until_ge _ _ _ _ Ed) as [Hge _].
    pose proof (region_reserved_page s i m HI Hs) as Hmod.
    destruct (grow_shape s i m f n (w_off at_ (r_len m)) (w_len at_ tr (r_len m) n) nr
                (if tr then w_off at_ (r_len m) else r_len m) HI Hs) as (sB & zs & x & base & -> & G);
      [destruct tr; lia|lia|exact (double_until_mod _ _ _ _ Hmod Ed)|]. clear Hmod. pose proof (wa_file G) as Hfl.
    destruct (N.leb_spec (zs + w_off at_ (r_len m) + n) (file_len sB)); [|lia].
    destruct (N.leb_spec (w_len at_ tr (r_len m) n) nr); [|lia].
    destruct (ok_set_reserved m nr) eqn:Eok; [exact I|]. cbn [andb].
    apply N.lt_nge. intros Hsz.
    rewrite (ok_set_reserved_doubled s i m _ nr HI Hs Hgrow ltac:(lia) Ed) in Eok. discriminate.
  - rewrite (double_until_err _ _ _ _ Ed). auto.
  - destruct (double_until_not_panic _ _ _ Ed).
Qed.

Lemma write_with_err s i f n at_ tr s' e :
  Inv s -> write_with s i f n at_ tr = AErr s' e -> s' = s.
Proof.
  intros HI. destruct (slot s i) as [m|] eqn:Hs.
  - intros Hw. pose proof (write_with_cases s i m f n at_ tr HI Hs) as H. rewrite Hw in H. apply H.
  - unfold write_with. rewrite Hs. now intros [= <- _].
Qed.

Lemma write_with_no_overflow s i m f n at_ tr s' :
  Inv s -> slot s i = Some m -> n <= MAX_RESERVED_SIZE / 4 ->
  write_with s i f n at_ tr <> AErr s' RegionSizeOverflow.
Proof.
  intros HI Hs Hn Hw.
  pose proof (write_with_cases s i m f n at_ tr HI Hs) as H. rewrite Hw in H.
  destruct H as [_ [[_ E]|(_ & Eo & Ed)]]; [discriminate|].
  destruct (inv_len s HI i m Hs) as [Hlen Hmax].
  pose proof (region_reserved_pos s i m HI Hs) as Hpos.
  pose proof MAX_x4_lt_two64 as HM.
  assert (Hnl : w_len at_ tr (r_len m) n <= MAX_RESERVED_SIZE + MAX_RESERVED_SIZE / 4).
  { unfold w_oob in Eo. unfold w_len. destruct at_ as [a|]; [destruct tr|]; lia. }
  destruct (double_until_ok 64 (r_reserved m) (w_len at_ tr (r_len m) n)) as (r' & Hr'); [lia|lia| |congruence].
  change (2 ^ N.of_nat 64) with two64. nia.
Qed.

Lemma create_ok s id hold : Inv s -> exists s', create s id hold = AOk (s', OUnit).
Proof.
  intros HI. destruct (find_id s id) as [i|] eqn:Ef; [rewrite (create_found s id hold i Ef); eauto|].
  destruct (create_cases s id hold HI Ef) as (H & Q & fl & start & L' & _ & _ & _ & ->). eauto.
Qed.

Lemma create_no_err s id hold s' e : Inv s -> create s id hold <> AErr s' e.
Proof. intros HI. destruct (create_ok s id hold HI) as (s1 & ->). discriminate. Qed.

Lemma remove_idx_cases s i :
  s2r_ok s -> match remove_idx s i with AOk _ => True | AErr s' _ => s' = s | APanic => False end.
Proof.
  intros Hok. unfold remove_idx. destruct (slot s i) as [m|] eqn:Hs; [|reflexivity].
  destruct (is_held s (r_id m)); [reflexivity|]. now rewrite layout_remove_region_ok.
Qed.

Lemma remove_idx_err s i s' e : s2r_ok s -> remove_idx s i = AErr s' e -> s' = s.
Proof. intros Hok E. pose proof (remove_idx_cases s i Hok) as H. now rewrite E in H. Qed.

Lemma retain_blocked_false s keep :
  retain_blocked s keep = false ->
  forall j m, slot s j = Some m -> existsb (fun y => y =? r_id m) keep = false -> is_held s (r_id m) = false.
Proof.
  unfold retain_blocked. intros Hb j m Hs Hk.
  destruct (is_held s (r_id m)) eqn:Eh; [|reflexivity]. exfalso.
  assert (Hx : existsb (fun o => match o with
                                  | Some m => negb (existsb (fun x => x =? r_id m) keep) && is_held s (r_id m)
                                  | None => false end) (slots s) = true).
  { apply existsb_exists. exists (Some m). split; [exact (slot_in_slots s j m Hs)|now rewrite Hk, Eh]. }
  congruence.
Qed.

Lemma retain_blocked_true s keep :
  retain_blocked s keep = true ->
  exists j m, slot s j = Some m /\ existsb (fun y => y =? r_id m) keep = false /\ is_held s (r_id m) = true.
Proof.
  unfold retain_blocked. intros Hb. apply existsb_exists in Hb. destruct Hb as ([m|] & HI & Hc); [|discriminate].
  apply andb_prop in Hc. destruct Hc as [Hc1 Hc2]. destruct (in_slots_slot s m HI) as [j Hj].
  exists j, m. split; [exact Hj|]. split; [|exact Hc2]. destruct (existsb _ keep); [discriminate|reflexivity].
Qed.

Lemma retain_from_ok s keep :
  Inv s -> retain_blocked s keep = false ->
  exists s1, retain_from (slots s) s keep 0 = AOk s1 /\ held s1 = held s /\ mem s1 = mem s /\
    (forall j, slot s1 j = kept keep (slot s j)) /\
    (forall j, slot s1 j <> None -> rfile_has s1 j = rfile_has s j).
Proof.
  intros HI Hb.
  destruct (retain_from_shape s2r_ok (fun _ H => H) s2r_ok_removed (slots s) s keep 0 (inv_s2r_ok s HI))
    as (s1 & Hr & _ & Hh & Hm & Hs1 & Hrf).
  - intros j _. unfold slot. now rewrite N.sub_0_r.
  - exact (retain_blocked_false s keep Hb).
  - exists s1. repeat (split; [assumption|]). split; [|exact Hrf]. intros j. rewrite Hs1.
    destruct (N.ltb_spec j 0); [lia|reflexivity].
Qed.

Lemma retain_err s keep s' e : Inv s -> retain s keep = AErr s' e -> s' = s.
Proof.
  intros HI. unfold retain. destruct (retain_blocked s keep) eqn:Eb; [intros [= <- _]; reflexivity|].
  destruct (retain_from_ok s keep HI Eb) as (s1 & -> & _). discriminate.
Qed.

(* under it a write does not panic (write_with_cases); the second half of AllocNoPanic.op_fits_strong *)
Definition writes_fit (s : st) (o : op) : Prop :=
  match o with
  | Write id _ n | WriteAt id _ n _ | TruncWrite id _ n _ =>
      forall i m, find_id s id = Some i -> slot s i = Some m -> r_len m + n <= MAX_RESERVED_SIZE / 2
  | _ => True
  end.
