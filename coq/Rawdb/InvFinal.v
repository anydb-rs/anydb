(* Rawdb/InvFinal.v — headline statements of C01 / C02 / C13 in the form the Props files state them; the
   refutation of C01 under `op_fits` alone (`c01_full_refuted`); Examples on reachable states showing
   that the hypotheses of those theorems are met. *)
From Anydb Require Import Common.Base Gen.Consts Rawdb.Alloc Rawdb.AllocSpec Rawdb.AllocInv Rawdb.AllocFacts
  Rawdb.AllocNoPanic Rawdb.AllocRefineAll Rawdb.InvStep.
From Anydb Require Rawdb.InvBool.

(* Props/C02.v states these with premises op_fits / op_defined, which preservation does not need *)
Theorem c02_inv_step : forall s o, Inv s -> op_fits s o -> op_defined s o -> Inv (fst (step_total s o)).
Proof. intros s o H _ _. now apply inv_step. Qed.

Theorem c02_reachable_full :
  forall min_len ops, Forall (fun o => forall s, op_fits s o) ops -> Inv (run (init min_len) ops).
Proof. intros min_len ops _. apply inv_reachable. Qed.

Lemma inv_b_reachable : forall min_len ops, InvBool.inv_b (run (init min_len) ops) = true.
Proof. intros. apply InvBool.inv_b_complete. apply inv_reachable. Qed.

(* Props/C13.v also states C13 for defined operations and for operations other than Retain: neither
   restriction is used *)
Corollary c13_rawdb_defined s o s' e :
  Inv s -> op_defined s o -> step s o = AErr s' e -> e <> RegionMetadataUnwritten -> s' = s.
Proof. intros HI _. now apply c13_rawdb. Qed.

Corollary c13_rawdb_nonretain s o s' e :
  Inv s -> (forall keep, o <> Retain keep) -> step s o = AErr s' e -> e <> RegionMetadataUnwritten -> s' = s.
Proof. intros HI _. now apply c13_rawdb. Qed.

(* C01: the full statement fails at the 1 TiB reserve limit (assert of set_reserved) *)
Definition c01_full : Prop :=
  forall s o, Inv s -> op_fits s o -> op_defined s o ->
    spec_eq (abs (fst (step_total s o))) (fst (spec_step (abs s) o))
    /\ res_agree (snd (step_total s o)) (snd (spec_step (abs s) o)).

Lemma c01_full_refuted : ~ c01_full.
Proof.
  intros H.
  assert (Hf : op_fits big_state (Write 1 (fun _ => 0) 1)) by (cbn [op_fits]; discriminate).
  destruct (H big_state (Write 1 (fun _ => 0) 1) (proj1 inv_big_state) Hf I) as [_ Hr].
  vm_compute in Hr. exact Hr.
Qed.

Theorem c01_refines_step_partial :
  forall s o, Inv s -> op_fits_strong s o ->
    spec_eq (abs (fst (step_total s o))) (fst (spec_step (abs s) o))
    /\ res_agree (snd (step_total s o)) (snd (spec_step (abs s) o)).
Proof. exact c01_refines_step_strong. Qed.

(* with an op_defined premise, which the proof does not use *)
Corollary c01_refines_step_partial_defined :
  forall s o, Inv s -> op_defined s o -> op_fits_strong s o ->
    spec_eq (abs (fst (step_total s o))) (fst (spec_step (abs s) o))
    /\ res_agree (snd (step_total s o)) (snd (spec_step (abs s) o)).
Proof. intros s o HI _. now apply c01_refines_step_strong. Qed.

Definition ex_ops : list op :=
  [Create 1 false; Write 1 (gen_byte 1) 5000; Create 2 true; Write 2 (gen_byte 2) 100; Remove 1; Flush;
   Create 3 false; WriteAt 3 (gen_byte 3) 10000 0; Truncate 2 50; Rename 2 7; Compact; Reopen].
Definition ex_state : st := run (init 0) ex_ops.

Example ex_state_inv : Inv ex_state.
Proof. apply inv_reachable. Qed.

(* the state is not trivial *)
Example ex_state_shape :
  layout_len ex_state = 7 * PAGE_SIZE /\ holes ex_state = [(0, 2 * PAGE_SIZE)] /\
  (exists m, slot ex_state 0 = Some m /\ r_id m = 3 /\ r_len m = 10000) /\
  (exists m, slot ex_state 1 = Some m /\ r_id m = 7 /\ r_len m = 50).
Proof. vm_compute. repeat split; eexists; repeat split. Qed.

(* C02, reuse clause: its hypotheses are met and its conclusion is observed *)
Example ex_reuse :
  has_hole_for ex_state PAGE_SIZE /\
  placed ex_state (fst (step_total ex_state (Create 9 false))) 2 /\
  layout_len (fst (step_total ex_state (Create 9 false))) = layout_len ex_state.
Proof.
  split; [|split].
  - exists 0, (2 * PAGE_SIZE). split; [vm_compute; reflexivity|vm_compute; discriminate].
  - vm_compute. exact I.
  - vm_compute. reflexivity.
Qed.

(* C13: a refused request on a reachable state *)
Example ex_c13 :
  let s := run (init 0) [Create 2 true] in
  Inv s /\ exists s', step s (Remove 2) = AErr s' RegionStillReferenced.
Proof.
  cbv zeta. split; [apply inv_reachable|]. eexists. vm_compute. reflexivity.
Qed.

(* Retain [] with region 2 held is refused as a whole (/repo 881ef86) *)
Example ex_c13_retain :
  let s := run (init 0) [Create 1 false; Create 2 true] in
  Inv s /\ step s (Retain []) = AErr s RegionStillReferenced.
Proof.
  cbv zeta. split; [apply inv_reachable|]. vm_compute. reflexivity.
Qed.

(* C01: a history all of whose steps meet the side conditions *)
Example ex_ops_ok : ops_ok (init 0) [Create 1 false; Write 1 (gen_byte 1) 5000; Flush; Reopen].
Proof.
  apply ops_ok_cons; [split; exact I|].
  apply ops_ok_cons.
  - split; [cbn [op_fits]; discriminate|].
    intros i m Hf Hs. vm_compute in Hf. inversion Hf; subst i. vm_compute in Hs. inversion Hs; subst m.
    vm_compute. discriminate.
  - apply ops_ok_cons; [split; exact I|].
    apply ops_ok_cons; [split; exact I|]. apply ops_ok_nil.
Qed.

(* both outcomes of the check retain_regions makes before it removes anything *)
Example ex_ops_ok_retain : ops_ok (init 0) [Create 1 false; Create 2 true; Retain []; DropHandle 2; Retain [2]; Retain []].
Proof. repeat (apply ops_ok_cons; [split; exact I|]). apply ops_ok_nil. Qed.

Example ex_retain_results :
  run_results (init 0) [Create 1 false; Create 2 true; Retain []; DropHandle 2; Retain [2]; Retain []]
  = [Ok OUnit; Ok OUnit; Err RegionStillReferenced; Ok OUnit; Ok OUnit; Ok OUnit].
Proof. vm_compute. reflexivity. Qed.
