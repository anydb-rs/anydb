(* The two operations that sync.  Database::flush has three paths: dirty regions; no dirty region but
   pending holes (metadata sync before the promotion, fix f53a575); nothing to do.  Each leaves the
   monitor `Settled` at the allocator state from before the operation (`flush_settles`); the events that
   follow (the punches and the data sync of AllocDisciplinedCompact.v, the completion marker) keep it there
   (`settled_punch`, `settled_datasync`, `settled_flushed`), and the state after the operation comes in
   last (`settled_restate`: a settled monitor is coupled to every state with this regions file and file
   length); `ok_of_settled` puts the three together.  Region::flush: `ok_flush_region`, the same way after
   its two syncs. *)
From Anydb Require Import Common.Base Rawdb.Alloc Rawdb.AllocInv
  Rawdb.CoverFacts Rawdb.InvLayout
  Rawdb.InvRun Rawdb.CompactFacts
  Rawdb.Crash Rawdb.CrashFacts Rawdb.CrashInv Rawdb.CrashLibDefs Rawdb.CrashSound Rawdb.AllocEvents Rawdb.AllocDisciplined
  Rawdb.AllocDisciplinedOps.

Lemma nodirty_region s i mi : flush_dirty s = [] -> slot s i = Some mi -> flush_region_is_dirty mi = false.
Proof.
  intros Hd Hs. destruct (flush_region_is_dirty mi) eqn:E; [|reflexivity]. exfalso.
  assert (Hin : In (Some mi) (flush_dirty s)).
  { unfold flush_dirty. apply filter_In. split; [apply (slot_in_slots s i mi Hs)|exact E]. }
  rewrite Hd in Hin. destruct Hin.
Qed.

Lemma metasync_ok_nil m : m_pdata m = [] -> metasync_ok m = true.
Proof. intros H. apply metasync_ok_spec. intros i v _. unfold pdata_misses. now rewrite H. Qed.

(* The monitor after the syncs of flush, compact or Region::flush, at the allocator state s from before the
   operation: no slot version is pending, so each slot has the one version that the regions file holds, and
   the data ranges still pending miss the content of every one of them.  The events that follow keep this at
   the same s; the state after the operation is put in at the end (`settled_restate`). *)
Definition Settled (s : st) (m : mon) : Prop :=
  Cpl s m /\ m_pend m = []
  /\ forall off len f j w, In (off, len, f) (m_pdata m) -> rf s j = Some w ->
       disjoint off len (sr_start w) (sr_len w) = true.

Lemma settled_possible s m j : Cpl s m -> m_pend m = [] -> possible m j = [rf s j].
Proof. intros HC Hp. rewrite <- (c_vol HC). unfold latest_of. rewrite possible_eq, Hp. reflexivity. Qed.

(* a region whose metadata was never written is empty *)
Lemma rf_pdata_ok s m :
  Inv s ->
  (forall off len f j w, In (off, len, f) (m_pdata m) -> rf s j = Some w -> disjoint off len (sr_start w) (sr_len w) = true) ->
  pdata_ok s m.
Proof.
  intros HI H off len f j mj Hx Hs _. pose proof (rf_mirror s j HI) as R. rewrite Hs in R.
  destruct (r_state mj =? ST_WRITE); [|exact (H off len f j _ Hx R)].
  destruct R as (_ & R & _). unfold disjoint. rewrite R. lia.
Qed.

Lemma cpl_datasync cur s m : CplIn cur s m -> CplIn cur s (fst (mon_step m CDataSync)).
Proof. intros [H1 H2 H3 H4 H5 H6 H7]. constructor; try assumption. intros off len f j mj []. Qed.

Lemma cpl_metasync cur s m : CplIn cur s m -> CplIn cur s (fst (mon_step m CMetaSync)).
Proof.
  intros [H1 H2 H3 H4 H5 H6 H7]. constructor; try assumption.
  - intros i. unfold latest_of. rewrite possible_metasync. apply H3.
  - intros j w a Hw. rewrite possible_metasync in Hw. destruct Hw as [Hw|[]].
    apply (H4 j w a). rewrite <- Hw. apply latest_in_possible.
  - intros i v [].
Qed.

(* data sync, then metadata sync: M5 holds because nothing is pending in the data file *)
Lemma sync_pair_settles s : triple (Cpl s) [CDataSync; CMetaSync] (Settled s).
Proof.
  intros m _ HC. rewrite mon_run_cons. change (snd (mon_step m CDataSync)) with true. cbv iota. rewrite mon_run_one.
  split; [exact (metasync_ok_nil (fst (mon_step m CDataSync)) eq_refl)|].
  split; [|now apply idle_no_punch]. split; [exact (cpl_metasync _ _ _ (cpl_datasync _ _ _ HC))|]. split; [reflexivity|intros off len f j w []].
Qed.

(* with no dirty region no metadata is in state NEEDS_FLUSH: a pending write of a slot can only
   be the zeroing of a removed region *)
Lemma nodirty_mpend_src s i : flush_dirty s = [] -> mpend_src s i -> rf s i = None /\ pend s <> [].
Proof.
  intros Hd [(mk & Hs & Hst)|H]; [exfalso|exact H].
  pose proof (nodirty_region s i mk Hd Hs) as Hf. unfold flush_region_is_dirty in Hf. rewrite Hst in Hf.
  apply orb_false_iff in Hf. destruct Hf as [_ Hf]. discriminate.
Qed.

Lemma nodirty_metasync_ok s m : Cpl s m -> flush_dirty s = [] -> metasync_ok m = true.
Proof.
  intros HC Hd. apply metasync_ok_spec. intros k v Hl. exfalso.
  destruct (pend_of (m_pend m) k) as [|x r] eqn:Ep; [discriminate|].
  assert (Hx : In (k, x) (m_pend m)) by (apply in_pend_of; rewrite Ep; left; reflexivity).
  destruct (nodirty_mpend_src s k Hd (c_mpend HC k x Hx)) as [Hn _].
  rewrite <- (c_vol HC) in Hn. unfold latest_of in Hn. rewrite possible_eq, Ep in Hn. rewrite last_cons_cons in Hn, Hl. congruence.
Qed.

(* Database::flush between COp [] and the completion marker *)
Lemma flush_settles s : Inv s -> triple (Cpl s) (flush_events s) (Settled s).
Proof.
  intros HI. unfold flush_events. destruct (flush_dirty s) as [|x l] eqn:Ed.
  2:{ (* dirty regions: data sync, metadata sync, promotion *)
      apply (triple_app _ (Settled s) _ [CDataSync; CMetaSync] [CPromote] (sync_pair_settles s)).
      apply triple_one; [reflexivity|]. intros m _ H. now split. }
  intros m _ HC.
  assert (Hpd : forall off len f j w, In (off, len, f) (m_pdata m) -> rf s j = Some w ->
                  disjoint off len (sr_start w) (sr_len w) = true).
  { intros off len f j w Hx Hw. destruct (rf_some_slot s j w HI Hw) as (mj & Hs & _ & <-).
    pose proof (nodirty_region s j mj Ed Hs) as Hnd. apply orb_false_iff in Hnd.
    exact (c_pdata HC off len f j mj Hx Hs (proj1 Hnd)). }
  destruct (pend s) as [|p t] eqn:Ep; cbn [app].
  - (* nothing pending: no sync *)
    rewrite mon_run_one. cbn [mon_step fst snd]. split; [reflexivity|]. split; [|now apply idle_no_punch]. split; [exact HC|]. split; [|exact Hpd].
    destruct (m_pend m) as [|[k v] r] eqn:E; [reflexivity|exfalso].
    assert (Hin : In (k, v) (m_pend m)) by (rewrite E; left; reflexivity).
    exact (proj2 (nodirty_mpend_src s k Ed (c_mpend HC k v Hin)) Ep).
  - (* pending holes: the regions file is synced before the promotion (fix f53a575) *)
    rewrite mon_run_cons. change (snd (mon_step m CMetaSync)) with (metasync_ok m).
    rewrite (nodirty_metasync_ok s m HC Ed), mon_run_one. cbn [mon_step fst snd].
    split; [reflexivity|]. split; [|now apply idle_no_punch]. split; [exact (cpl_metasync _ _ _ HC)|]. split; [reflexivity|exact Hpd].
Qed.

Lemma settled_datasync s : triple (Settled s) [CDataSync] (Settled s).
Proof.
  apply triple_one; [reflexivity|]. intros m _ (HC & Hp & _). split; [reflexivity|].
  split; [exact (cpl_datasync _ _ _ HC)|]. split; [exact Hp|intros off len f j w []].
Qed.

(* M4: the punched range misses the content of every region in the regions file *)
Lemma settled_punch s off len :
  Inv s -> (forall j w, rf s j = Some w -> disjoint off len (sr_start w) (sr_len w) = true) ->
  triple (Settled s) [CPunch off len] (Settled s).
Proof.
  intros HI Hd m _ (HC & Hp & Hpd). rewrite mon_run_one. cbn [mon_step fst snd]. split; [|split; [|exact (conj (c_cur HC) I)]].
  - apply data_ok_intro. intros j. right. intros w Hw. rewrite (settled_possible s m j HC Hp) in Hw.
    destruct Hw as [Hw|[]]. exact (Hd j w Hw).
  - assert (Hpd' : forall o l f j w, In (o, l, f) (m_pdata m ++ [(off, len, fun _ => 0)]) -> rf s j = Some w ->
                     disjoint o l (sr_start w) (sr_len w) = true).
    { intros o l f j w Hx Hw. apply in_app_or in Hx.
      destruct Hx as [Hx|[[= <- <- <-]|[]]]; [exact (Hpd o l f j w Hx Hw)|exact (Hd j w Hw)]. }
    split; [|split; [exact Hp|exact Hpd']].
    destruct HC as [H1 H2 H3 H4 H5 H6 H7]. constructor; try assumption. apply rf_pdata_ok; [exact HI|exact Hpd'].
Qed.

(* the completion marker: M6 holds, and the snapshot it takes is the regions file *)
Lemma settled_flushed s : triple (Settled s) [CFlushed] (Settled s).
Proof.
  apply triple_one; [reflexivity|]. intros m HK (HC & Hp & Hpd). cbn [mon_step fst snd].
  assert (Hdur : forall i w, In (i, w) (live_durable m) -> rf s i = Some w).
  { intros i w Hin. apply live_durable_in in Hin. pose proof (settled_possible s m i HC Hp) as E.
    unfold possible, dur_of in E. rewrite (assoc_get_nodup i (Some w) _ (k_nodup m HK) Hin) in E. now injection E as <-. }
  split.
  - rewrite Hp. apply forallb_forall. intros [i w] Hin. apply forallb_forall. intros [[off len] f] Hx.
    exact (Hpd off len f i w Hx (Hdur i w Hin)).
  - split; [|split; [exact Hp|exact Hpd]].
    destruct HC as [H1 H2 H3 H4 H5 H6 H7]. constructor; try assumption.
    unfold fl_ok. cbn [m_flushed]. intros i w Hga _. exact (Hdur i w (assoc_get_in _ _ _ Hga)).
Qed.

(* the operation over: its result state differs from s in nothing that `Settled` reads but the table,
   and Inv ties the table to the regions file *)
Lemma settled_restate s s' m :
  Inv s' -> Settled s m -> (forall j, rf s' j = rf s j) -> file_len s' = file_len s -> Cpl s' m.
Proof.
  intros HI' (HC & Hp & Hpd) Hrf Hfl. constructor.
  - rewrite Hfl. apply (c_len HC).
  - apply (c_cur HC).
  - intros j. rewrite Hrf. apply (c_vol HC).
  - intros j w a Hw Ha. rewrite (settled_possible s m j HC Hp), <- Hrf in Hw. destruct Hw as [Hw|[]].
    destruct (rf_some_slot s' j w HI' Hw) as (mj & Hs & Hst & <-). left. exists mj. auto.
  - apply (fl_ok_in_op s s' m (c_fl HC)). intros k v Hk _. now rewrite Hrf.
  - rewrite Hp. intros i v [].
  - apply (rf_pdata_ok s' m HI'). intros off len f j w Hx. rewrite Hrf. exact (Hpd off len f j w Hx).
Qed.

(* an operation under COp [] whose events settle the monitor and whose result keeps regions file and file length *)
Lemma ok_of_settled orc s o body :
  Inv s -> step_events_o orc s o = COp [] :: body -> triple (Cpl s) body (Settled s) ->
  (forall j, rf (fst (step_total s o)) j = rf s j) -> file_len (fst (step_total s o)) = file_len s ->
  step_ok orc s o.
Proof.
  intros HI E Hb Hrf Hfl. unfold step_ok. rewrite E.
  apply (triple_post _ (Settled s)); [exact (triple_app _ _ _ [COp []] _ (op_open [] s) Hb)|].
  intros m Hm. exact (settled_restate s _ m (inv_step s o HI) Hm Hrf Hfl).
Qed.

Theorem ok_flush orc s : Inv s -> step_ok orc s Flush.
Proof.
  intros HI. pose proof (flush_eq s) as Es.
  apply (ok_of_settled orc s Flush (flush_events s ++ [CFlushed]) HI);
    unfold step_events_o, step_total, closer; cbn [step op_ids body_events]; destruct (flush s) as [s1 n]; cbn [fst] in *.
  - reflexivity.
  - apply (triple_app _ (Settled s) _ _ _ (flush_settles s HI)), settled_flushed.
  - intros j. unfold rf. now rewrite Es.
  - now rewrite Es.
Qed.

(* Region::flush: data sync, metadata sync, completion marker; or nothing to do *)
Theorem ok_flush_region orc s id : Inv s -> step_ok orc s (FlushRegion id).
Proof.
  intros HI. apply (with_region_at orc s (FlushRegion id) id (fun i => flush_region s i) _ _ eq_refl eq_refl).
  { exact (ok_of_err orc s _ _ HI). }
  intros i mi Hs Hid Estep Hbody. unfold flush_region in Estep. rewrite Hs in Estep, Hbody.
  assert (Hquiet : m_is_dirty mi = false -> fst (step_total s (FlushRegion id)) = upd s i m_clear_dirty ->
                   step_events_o orc s (FlushRegion id) = [COp []; CEnd] -> step_ok orc s (FlushRegion id)).
  { intros Hd Est Eev.
    apply (ok_of_no_slot orc s _ _ HI Est); [|apply rf_upd|apply pend_upd|apply file_len_upd|exact Eev].
    intros j. rewrite slot_upd, Hs. cbn [option_map]. unfold m_clear_dirty. rewrite Hd. now destruct (N.eqb_spec j i) as [->|]. }
  assert (Hsync : forall g, step s (FlushRegion id) = AOk (upd s i g, ONum 1) ->
            m_is_dirty mi || negb (r_state mi =? ST_CLEAN) = true -> step_ok orc s (FlushRegion id)).
  { intros g E Hb.
    apply (ok_of_settled orc s _ ([CDataSync; CMetaSync] ++ [CRegionFlushed]) HI).
    - unfold step_events_o, closer. now rewrite E, Hbody, Hb.
    - apply (triple_app _ (Settled s) _ _ _ (sync_pair_settles s)), triple_one; [reflexivity|]. intros m _ H. now split.
    - unfold step_total. rewrite E. apply rf_upd.
    - unfold step_total. rewrite E. apply file_len_upd. }
  destruct (r_state mi =? ST_CLEAN) eqn:Ec.
  - destruct (m_is_dirty mi) eqn:Ed; [exact (Hsync m_clear_dirty Estep eq_refl)|].
    apply Hquiet; [reflexivity|unfold step_total; now rewrite Estep|unfold step_events_o, closer; now rewrite Estep, Hbody].
  - destruct (r_state mi =? ST_WRITE) eqn:Ew.
    + (* metadata never written: refused after take_dirty_bounds; such a region is not dirty *)
      pose proof (rf_mirror s i HI) as R. rewrite Hs, Ew in R. destruct R as (_ & _ & Hd).
      apply (Hquiet Hd); [unfold step_total; now rewrite Estep|].
      unfold step_events_o. rewrite closer_not_ok by (intros x; rewrite Estep; discriminate). now rewrite Estep.
    + rewrite upd_upd in Estep. apply (Hsync _ Estep), orb_true_r.
Qed.
