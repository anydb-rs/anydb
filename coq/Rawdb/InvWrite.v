(* Rawdb/InvWrite.v — Inv across the rewriting of one slot by a write: `rewritten_inv`, slot i receives
   new metadata over a base state; `in_place_inv` and `moved_inv` are its two uses over `carved` bytes,
   for the two results of AllocOutcome.grow_cases. *)
From Anydb Require Import Common.Base Gen.Consts Rawdb.AMap Rawdb.Alloc Rawdb.AllocInv
  Rawdb.AMapFacts Rawdb.CoverFacts Rawdb.InvLayout Rawdb.AllocErr Rawdb.HolesFacts
  Rawdb.InvOps.

Definition quiet (m x : rmeta) : Prop := r_state x <> ST_WRITE -> r_state m <> ST_WRITE /\ srec x = srec m.

Lemma quiet_refl m : quiet m m.
Proof. intros H. auto. Qed.

(* x is what setters made of m; a r l in the order of AllocOutcome.written_meta; `quiet`: a changed record
   is marked NEEDS_WRITE *)
Definition sets (m x : rmeta) (a r l : N) : Prop :=
  r_start x = a /\ r_len x = l /\ r_reserved x = r /\ r_id x = r_id m /\ quiet m x.

Lemma sets_refl m : sets m m (r_start m) (r_reserved m) (r_len m).
Proof. exact (conj eq_refl (conj eq_refl (conj eq_refl (conj eq_refl (quiet_refl m))))). Qed.
Lemma sets_len m x a r l v : sets m x a r l -> sets m (m_set_len x v) a r v.
Proof.
  intros (H1 & H2 & H3 & H4 & Hq). unfold m_set_len. destruct (N.eqb_spec (r_len x) v) as [<-|_].
  - exact (conj H1 (conj eq_refl (conj H3 (conj H4 Hq)))).
  - refine (conj H1 (conj eq_refl (conj H3 (conj H4 _)))). intros H. now destruct H.
Qed.
Lemma sets_dirty m x a r l p q : sets m x a r l -> sets m (m_mark_dirty x p q) a r l.
Proof. intros (H1 & H2 & H3 & H4 & Hq). exact (conj H1 (conj H2 (conj H3 (conj H4 Hq)))). Qed.

Lemma mark_dirty_fields m a b :
  r_start (m_mark_dirty m a b) = r_start m /\ r_len (m_mark_dirty m a b) = r_len m /\
  r_reserved (m_mark_dirty m a b) = r_reserved m /\ r_id (m_mark_dirty m a b) = r_id m.
Proof. repeat split. Qed.

Lemma inv_wid_sets s i f m l :
  Inv s -> slot s i = Some m -> sets m (f m) (r_start m) (r_reserved m) l -> l <= r_reserved m ->
  Inv (write_if_dirty (upd s i f) i) /\ layout_len (write_if_dirty (upd s i f) i) = layout_len s.
Proof.
  intros HI Hs (A1 & A2 & A3 & A4 & A5) Hl. apply (inv_wid_upd s i f m HI Hs); auto.
  - unfold rext. now rewrite A1, A3.
  - now rewrite A2.
Qed.

Lemma truncate_post s i from : Inv s -> post False s (truncate s i from).
Proof.
  intros HI. unfold truncate. destruct (slot s i) as [m|] eqn:Hs; [|now apply post_same].
  destruct (from =? r_len m); [apply post_len; now split|].
  destruct (N.ltb_spec (r_len m) from) as [|Hle]; [now apply post_same|].
  destruct (inv_len s HI i m Hs) as [Hl _]. unfold ok_set_len. destruct (N.leb_spec from (r_reserved m)); [|lia].
  apply post_len. apply (inv_wid_sets s i _ m from HI Hs); [eapply sets_len, sets_refl|lia].
Qed.

Lemma upd_frame_holes s H Q i f : upd (set_holes s H Q) i f = set_holes (upd s i f) H Q.
Proof. unfold upd. rewrite slot_set_holes. destruct (slot s i); reflexivity. Qed.

(* s' is `wput sb i x` as AllocOutcome.wput_nf writes it; sb differs from s in its maps *)
Lemma rewritten_inv s sb i m x a r l L' :
  Inv s -> slot s i = Some m ->
  sets m x a r l -> aligned (a, r) -> l <= r -> r <= MAX_RESERVED_SIZE ->
  (forall j, aget a (s2r s) = Some j -> j = i) ->
  slots sb = slots s -> rfile sb = rfile s -> resv sb = [] ->
  asorted (s2r sb) ->
  (forall b, aget b (s2r sb) = if b =? a then Some i else if b =? r_start m then None else aget b (s2r s)) ->
  holes_ok (holes sb) (h2s sb) -> asorted (pend sb) -> Forall aligned (pend sb) ->
  (forall b, (cov (a, r) b + owners (region_exts (slots s)) b + owners (holes sb) b + owners (pend sb) b)%nat
             = ((if (b <? L')%N then 1 else 0) + cov (rext m) b)%nat) ->
  L' <= file_len sb ->
  let s' := put_slot (set_rfile sb (if r_state x =? ST_WRITE then set_at (rfile sb) (N.to_nat i) (Some (srec x)) None
                                    else rfile sb)) i (Some (fin x)) in
  Inv s' /\ layout_len s' = L'.
Proof.
  intros HI Hs (G1 & G2 & G3 & G4 & Hqt) Hax Hlen Hmax Hfresh E1 E2 E3 S1 Hq Hok S3 Ap Hcov Hfile s'.
  assert (Hsl : forall j, slot s' j = if j =? i then Some (fin x) else slot s j)
    by (intros j; apply slot_set_at; subst s'; st_simpl; now rewrite E1).
  assert (Hrx : rext x = (a, r)) by (unfold rext; now rewrite G1, G3).
  refine (inv_put s s' i (Some (fin x)) L' HI ?[slots] S1 ?[map] Hok S3 Ap E3 ?[cover] Hfile ?[local] ?[rfile]).
  [slots]: { subst s'. st_simpl. now rewrite E1. }
  [map]: { intros b. rewrite Hs. cbn [starts]. rewrite fin_start, G1. apply Hq. }
  [cover]: { intros b. rewrite Hs. cbn [oext]. rewrite fin_rext, Hrx. apply Hcov. }
  [local]: { rewrite fin_rext, fin_len, fin_reserved, fin_start, fin_id, Hrx, G1, G2, G3.
    repeat (split; [assumption|]). left. eauto. }
  [rfile]: { apply (mirrors_wid_put s _ i m x (inv_rfile s HI) Hs Hqt Hsl). subst s'. st_simpl. now rewrite E2. }
Qed.

Lemma ok_set_reserved_facts m nr :
  ok_set_reserved m nr = true -> r_len m <= nr /\ PAGE_SIZE <= nr /\ nr mod PAGE_SIZE = 0 /\ nr <= MAX_RESERVED_SIZE.
Proof. unfold ok_set_reserved. intros H. repeat (apply andb_prop in H; destruct H as [H ?]). repeat split; lia. Qed.

(* the test under which a growing write succeeds (AllocOutcome.in_place_res, moved_res) *)
Lemma grow_fits_bounds (b : bool) m nr nl :
  b && ok_set_reserved m nr && (nl <=? nr) = true -> nr <= MAX_RESERVED_SIZE /\ nl <= nr.
Proof.
  intros E. apply andb_prop in E. destruct E as [E Hnl]. apply andb_prop in E. destruct E as [_ Hok].
  apply ok_set_reserved_facts in Hok. split; [apply Hok|now apply N.leb_le].
Qed.

(* written metadata is marked NEEDS_WRITE, which makes `quiet` trivial *)
Lemma written_meta_sets m x a r l : written_meta m x a r l -> sets m x a r l.
Proof. intros (A & B & C & D & E). repeat (split; [assumption|]). intros H. destruct (H E). Qed.

Lemma in_place_inv s sA i m x nr nl L' mm :
  Inv s -> slot s i = Some m ->
  carved s sA (r_start m + r_reserved m) (nr - r_reserved m) L' ->
  r_reserved m <= nr -> nr <= MAX_RESERVED_SIZE -> nl <= nr -> sets m x (r_start m) nr nl ->
  Inv (wput (set_mem sA mm) i x) /\ layout_len (wput (set_mem sA mm) i x) = L'.
Proof.
  intros HI Hs Hc Hge Hmax Hnl Hx.
  destruct (s2r_same_start s i m HI Hs) as [Hq Hfresh]. rewrite wput_nf.
  refine (rewritten_inv s (set_mem sA mm) i m x (r_start m) nr nl L' HI Hs Hx ?[aligned] Hnl Hmax Hfresh
            (cv_slots Hc) (cv_rfile Hc) (cv_resv Hc) ?[sorted] ?[map] (cv_holes Hc) ?[pend_sorted] ?[pend_aligned]
            ?[cover] (cv_file Hc)); st_simpl.
  [aligned]: { replace nr with (r_reserved m + (nr - r_reserved m)) by lia.
    apply aligned_app; [apply (inv_region_aligned s i m HI Hs)|exact (cv_aligned Hc)]. }
  [sorted]: { rewrite (cv_s2r Hc). exact (inv_sorted_s2r s HI). }
  [map]: { rewrite (cv_s2r Hc). exact Hq. }
  [pend_sorted]: { rewrite (cv_pend Hc). exact (inv_sorted_pend s HI). }
  [pend_aligned]: { rewrite (cv_pend Hc). exact (inv_pend_aligned s HI). }
  [cover]: { intros a. rewrite (cv_pend Hc). pose proof (cv_cover Hc a).
    rewrite (cov_split (r_start m) (r_reserved m) nr a Hge). unfold rext. lia. }
Qed.

Lemma moved_inv s sb i m x ns nr nl L' mm :
  Inv s -> slot s i = Some m -> carved s sb ns nr L' ->
  nr <= MAX_RESERVED_SIZE -> nl <= nr -> sets m x ns nr nl ->
  Inv (wput (moved (set_resv sb [(ns, nr)]) i m ns mm) i x)
  /\ layout_len (wput (moved (set_resv sb [(ns, nr)]) i m ns mm) i x) = L'.
Proof.
  intros HI Hs Hc Hmax Hnl Hx.
  rewrite wput_nf. unfold moved. st_simpl. cbn [arem]. rewrite N.eqb_refl.
  match goal with |- context [set_rfile ?X _] => set (s6 := X) end.
  refine (rewritten_inv s s6 i m x ns nr nl L' HI Hs Hx (cv_aligned Hc) Hnl Hmax ?[fresh] (cv_slots Hc) (cv_rfile Hc)
            eq_refl ?[sorted] ?[map] (cv_holes Hc) ?[pend_sorted] ?[pend_aligned] ?[cover] (cv_file Hc)); subst s6; st_simpl.
  [fresh]: { intros j. rewrite (cv_fresh Hc). discriminate. }
  [sorted]: { rewrite (cv_s2r Hc). exact (asorted_ains _ _ _ (asorted_arem _ _ (inv_sorted_s2r s HI))). }
  [map]: { intros a. rewrite (cv_s2r Hc), aget_ains, aget_arem by now apply inv_sorted_s2r. reflexivity. }
  [pend_sorted]: { rewrite (cv_pend Hc). exact (asorted_ains _ _ _ (inv_sorted_pend s HI)). }
  [pend_aligned]: { rewrite (cv_pend Hc).
    apply Forall_ains; [exact (inv_pend_aligned s HI)|apply (inv_region_aligned s i m HI Hs)]. }
  [cover]: { intros a. rewrite (cv_pend Hc), owners_ains_absent by exact (inv_region_start_not_pend s i m HI Hs).
    pose proof (cv_cover Hc a). unfold rext. lia. }
Qed.

(* only a move places the region, and `place` reuses a fitting hole *)
Lemma grow_cases_post s i m f n wo nl nr cl r :
  Inv s -> slot s i = Some m -> r_reserved m < nr -> grow_cases s i m f n wo nl nr cl r -> post True s r.
Proof.
  intros HI Hs Hlt (H & Q & fl & L' & _ & [[Hc ->]|(ns & Hc & HL & ->)]); assert (Hne : r_reserved m <> nr) by lia.
  - unfold in_place_res. destruct (_ && _) eqn:Ec; [|exact I].
    destruct (grow_fits_bounds _ _ _ _ Ec) as [Hmax Hnl].
    pose proof (written_meta_sets _ _ _ _ _ (in_place_meta_written m nr wo n nl Hne)) as Hx. split.
    + eapply proj1, (in_place_inv s _ i m _ nr nl L'); eauto. lia.
    + apply reuse_ok_no_move. intros j mj'. rewrite slot_wput.
      destruct (N.eqb_spec j i) as [->|_]; [|intros Hj; exists mj'; split; [exact Hj|reflexivity]].
      intros [= <-]. exists m. rewrite fin_start. split; [exact Hs|]. symmetry. apply Hx.
  - unfold moved_res. destruct (_ && _) eqn:Ec; [|exact I].
    destruct (grow_fits_bounds _ _ _ _ Ec) as [Hmax Hnl].
    pose proof (written_meta_sets _ _ _ _ _ (reloc_meta_written m ns nr nl Hne)) as Hx.
    destruct (moved_inv s _ i m _ ns nr nl L' (mem_write (copied (mem s) (r_start m) ns cl) (ns + wo) f n) HI Hs Hc Hmax Hnl Hx)
      as [F1 F2].
    split; [exact F1|]. apply (reuse_ok_placed s _ i (fin (reloc_meta ns nr nl m)) nr HI).
    + intros j. now rewrite slot_wput.
    + rewrite fin_reserved. apply Hx.
    + destruct HL as [HL|HL]; [left; exact (eq_trans F2 HL)|right; exact HL].
Qed.

Lemma write_with_post s i f n at_ tr : Inv s -> post True s (write_with s i f n at_ tr).
Proof.
  intros HI. destruct (slot s i) as [m|] eqn:Hs; [|unfold write_with; rewrite Hs; now apply post_same].
  rewrite (write_with_unfold s i m f n at_ tr Hs).
  destruct (w_oob at_ (r_len m)) eqn:Eo; [now apply post_same|]. cbv zeta.
  destruct (w_off_len at_ tr (r_len m) n Eo) as [Hwo Hwn]. destruct (inv_len s HI i m Hs) as [Hlen _].
  set (wo := w_off at_ (r_len m)) in *. set (nl := w_len at_ tr (r_len m) n) in *. clearbody wo nl.
  destruct (N.leb_spec nl (r_reserved m)) as [Hfit|Hgrow].
  { destruct (db_write s (r_start m + wo) f n) as [s1|] eqn:Ew; [|exact I].
    apply db_write_some in Ew. destruct Ew as [mm ->].
    destruct (inv_set_mem s mm HI) as [HI1 _].
    assert (Hs1 : slot (set_mem s mm) i = Some m) by exact Hs.
    destruct (nl =? r_len m) eqn:Enl; apply post_len.
    - apply (inv_upd_keep (set_mem s mm) i _ m HI1 Hs1); try reflexivity.
      intros Hst. cbn [m_mark_dirty r_dmax]. destruct (inv_write_state_dmax s i m HI Hs Hst) as [Hl0 Hd0]. lia.
    - rewrite upd_upd.
      apply (inv_wid_sets (set_mem s mm) i _ m nl HI1 Hs1); [eapply sets_len, sets_dirty, sets_refl|lia]. }
  destruct (r_reserved m =? 0); [now apply post_same|].
  destruct (double_until 64 (r_reserved m) nl) as [nr|e0|] eqn:Ed; [|now apply post_same|exact I].
  destruct (inv_region_aligned s i m HI Hs) as (_ & R2 & _). cbn [snd rext] in R2.
  pose proof (double_until_ge _ _ _ _ Ed) as [Hge _].
  apply (grow_cases_post s i m f n wo nl nr (if tr then wo else r_len m) _ HI Hs); [lia|].
  apply grow_path_cases; auto; [destruct tr; lia|lia|exact (double_until_mod _ _ _ _ R2 Ed)].
Qed.
