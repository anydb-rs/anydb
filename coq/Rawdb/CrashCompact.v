(* The crash part of C12: in a trace accepted by the monitor a hole punch issued while no operation
   is in progress (`m_cur m = []`) releases only bytes that no possibly-durable slot version
   references as content (`C12_punch_safe_proof`, `C12_punch_keeps_contents_proof`); every crash
   point after it is one of an accepted trace, so `C05_os_proof` applies (`C12_crash_os_proof`). *)
From Anydb Require Import Common.Base Rawdb.Alloc Rawdb.Crash Rawdb.CrashFacts
  Rawdb.CrashInv Rawdb.CrashSound Rawdb.CoverFacts.

Lemma not_addressed_when_idle m i : m_cur m = [] -> slot_addressed m i = false.
Proof.
  intros Hc. unfold slot_addressed. rewrite Hc.
  induction (possible m i) as [|[w|] t IH]; cbn [existsb mem_in orb]; [reflexivity|exact IH|exact IH].
Qed.

Theorem C12_punch_safe_proof :
  forall t1 off len t2, snd (mon_run mon_init (t1 ++ CPunch off len :: t2)) = true ->
    let m := fst (mon_run mon_init t1) in
    m_cur m = [] ->
    forall i v, In (Some v) (possible m i) -> disjoint off len (sr_start v) (sr_len v) = true.
Proof.
  intros t1 off len t2 H m Hc i v Hin. apply mon_run_app in H. destruct H as [_ H]. fold m in H.
  rewrite mon_run_cons in H. cbn [mon_step snd] in H. destruct (data_ok m off len) eqn:Hd; [|discriminate].
  apply (data_ok_spec m off len Hd i v Hin). apply not_addressed_when_idle. exact Hc.
Qed.

(* on the content of any possibly-durable version, every OS image taken after the punch is an OS
   image taken before it *)
Theorem C12_punch_keeps_contents_proof :
  forall t1 off len t2, snd (mon_run mon_init (t1 ++ CPunch off len :: t2)) = true ->
    let m := fst (mon_run mon_init t1) in
    let m' := fst (mon_run mon_init (t1 ++ [CPunch off len])) in
    m_cur m = [] ->
    forall i v, In (Some v) (possible m i) ->
    forall img, os_data m' img -> forall a, sr_start v <= a < sr_start v + sr_len v ->
      img a = m_dmem m a \/
      exists off' len' f, In (off', len', f) (m_pdata m) /\ off' <= a < off' + len' /\ img a = f a.
Proof.
  intros t1 off len t2 H m m' Hc i v Hin img Himg a Ha.
  pose proof (C12_punch_safe_proof t1 off len t2 H Hc i v Hin) as Hd. fold m in Hd.
  change (t1 ++ CPunch off len :: t2) with (t1 ++ [CPunch off len] ++ t2) in H. rewrite app_assoc in H.
  destruct (mon_run_snoc _ _ _ (proj1 (mon_run_app _ _ _ H))) as (_ & _ & Em). fold m in Em. fold m' in Em.
  rewrite Em in Himg. destruct (Himg a) as [E|(o & l & g & Hi & Hr & E)]; mcbn.
  - left. exact E.
  - apply in_app_or in Hi. destruct Hi as [Hi|[Hi|[]]].
    + right. exists o, l, g. tauto.
    + injection Hi as <- <- <-. exfalso. exact (disjoint_no_common _ _ _ _ a Hd Hr Ha).
Qed.

Theorem C12_crash_os_proof :
  forall t1 off len t2, snd (mon_run mon_init (t1 ++ CPunch off len :: t2)) = true ->
    let m := fst (mon_run mon_init (t1 ++ [CPunch off len])) in
    forall sigma img, os_slots m sigma -> os_data m img ->
      os_safe m sigma img.
Proof.
  intros t1 off len t2 H. apply (C05_os_proof (t1 ++ [CPunch off len]) t2).
  rewrite <- app_assoc. exact H.
Qed.

(* the arithmetic of punch_holes: the punched tail [start + ceil_page len, start + reserved) of a
   region never meets its content [start, start + len) *)
Theorem C12_tail_punch_disjoint start ln reserved :
  disjoint (start + ceil_page ln) (reserved - ceil_page ln) start ln = true.
Proof. pose proof (ceil_page_ge ln). unfold disjoint. lia. Qed.
