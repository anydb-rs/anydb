(* Rawdb/InvRun.v — C02: every step keeps Inv, without side condition (`inv_step`), hence every run;
   the reuse clause is `step_reuse`. *)
From Anydb Require Import Common.Base Gen.Consts Rawdb.Alloc Rawdb.AllocInv Rawdb.AllocFacts
  Rawdb.CoverFacts Rawdb.InvFacts.
From Anydb Require Export Rawdb.StepOutcome.

Theorem inv_step s o : Inv s -> Inv (fst (step_total s o)).
Proof.
  intros HI. pose proof (step_outcome s o HI) as H. unfold step_total.
  destruct (step s o) as [[s' r]|s' e|]; cbn [fst]; [apply H|apply H|exact HI].
Qed.

Theorem inv_run ops : forall s, Inv s -> Inv (run s ops).
Proof.
  unfold run. induction ops as [|o ops IH]; intros s HI; cbn [fold_left]; [exact HI|].
  apply IH. now apply inv_step.
Qed.

Theorem inv_reachable min_len ops : Inv (run (init min_len) ops).
Proof. apply inv_run. apply inv_init. Qed.

Theorem step_reuse s o s' r i m' :
  Inv s -> step s o = AOk (s', r) -> placed s s' i -> slot s' i = Some m' -> has_hole_for s (r_reserved m') ->
  layout_len s' = layout_len s.
Proof.
  intros HI E Hp Hs Hh. pose proof (step_outcome s o HI) as H. rewrite E in H. destruct H as [_ H]. eapply H; eauto.
Qed.

(* the clauses of C02 as the property text words them *)
Theorem inv_regions_disjoint s i j mi mj :
  Inv s -> i <> j -> slot s i = Some mi -> slot s j = Some mj ->
  r_start mi + r_reserved mi <= r_start mj \/ r_start mj + r_reserved mj <= r_start mi.
Proof. apply region_region_disjoint. Qed.

Theorem inv_region_shape s i m :
  Inv s -> slot s i = Some m ->
  r_start m mod PAGE_SIZE = 0 /\ r_reserved m mod PAGE_SIZE = 0 /\ 0 < r_reserved m /\
  r_len m <= r_reserved m /\ r_start m + r_reserved m <= file_len s.
Proof.
  intros HI Hs. destruct (inv_region_aligned s i m HI Hs) as (A1 & A2 & A3). cbn [fst snd rext] in A1, A2, A3.
  repeat split; auto; [exact (inv_region_len s i m HI Hs)|exact (region_end_file s i m HI Hs)].
Qed.

Theorem inv_exact_cover s a : Inv s -> owners (extents s) a = if a <? layout_len s then 1%nat else 0%nat.
Proof. intros HI. apply (inv_cover s HI). Qed.
