(* The five successful paths of Region::write_with (fits in the reserve with and without a length
   change, extension of the last region, expansion into the adjacent hole, relocation) satisfy
   WObs; hence `ok_write`: write, write_at and truncate_write are `step_ok` in every outcome. *)
From Anydb Require Import Common.Base Rawdb.AMap Rawdb.Alloc Rawdb.AllocInv
  Rawdb.CoverFacts Rawdb.AllocErr Rawdb.InvLayout
  Rawdb.Crash Rawdb.CrashInv Rawdb.AllocEvents
  Rawdb.AllocDisciplined Rawdb.AllocDisciplinedOps Rawdb.AllocDisciplinedWObs.

(* write_with is unfolded here next to AllocEvents.write_events, branch by branch, and not read off
   AllocOutcome.grow_path_cases: write_events branches on its own, its three growth paths emit different
   events, and grow_cases merges two of them.  A new branch of write_with is entered here as well. *)
Lemma write_wobs s i m f n at_ tr s' r :
  Inv s -> slot s i = Some m -> write_with s i f n at_ tr = AOk (s', r) ->
  WObs s i m s' (write_events s i f n at_ tr).
Proof.
  intros HI Hs. unfold write_with, write_events. rewrite Hs.
  destruct (match at_ with Some a => r_len m <? a | None => false end) eqn:Eat; [discriminate|].
  set (wo := match at_ with Some a => a | None => r_len m end).
  set (nl := match at_ with None => r_len m + n | Some a => if tr then a + n else N.max (a + n) (r_len m) end).
  set (cl := if tr then wo else r_len m).
  assert (Hwn : wo + n <= nl) by (subst wo nl; destruct at_; [destruct tr|]; lia).
  assert (Hn0 : n = 0 -> nl <= r_len m) by (subst wo nl; destruct at_; [destruct tr|]; lia).
  assert (Hcl : cl <= nl /\ cl <= r_len m) by (subst cl wo nl; destruct at_; destruct tr; lia).
  clearbody wo nl cl. pose proof (inv_region_len s i m HI Hs) as Hlen.
  destruct (N.leb_spec nl (r_reserved m)) as [Hfit|Hgrow].
  { destruct (db_write s (r_start m + wo) f n) as [s1|] eqn:Ew; [|discriminate]. apply db_write_eq in Ew. subst s1.
    destruct (N.eqb_spec nl (r_len m)) as [Enl|Enl]; intros [= <- _].
    - (* no length change: data only *)
      exists [(r_start m + wo, n, wcontent (r_start m + wo) f)], None.
      assert (Hsi : forall j, slot (upd (set_mem s (mem_write (mem s) (r_start m + wo) f n)) i (fun m0 => m_mark_dirty m0 wo n)) j
                              = if j =? i then Some (m_mark_dirty m wo n) else slot s j).
      { intros j. rewrite slot_upd, !slot_set_mem, Hs. reflexivity. }
      split; [unfold meta_body, len_ev; rewrite file_len_upd; cbn [file_len set_mem]; now rewrite N.eqb_refl|].
      assert (Hsii := Hsi i). rewrite N.eqb_refl in Hsii.
      refine {| ms_len := _; ms_frame := _; ms_pend := _; ms_old := _; ms_id := _; ms_datas := _; ms_nd := _; ms_new := _ |}; rewrite ?Hsii.
      + rewrite file_len_upd. apply N.le_refl.
      + intros j Hne. rewrite Hsi, rf_upd. now destruct (N.eqb_spec j i).
      + intros p z. now rewrite pend_upd.
      + intros mi a Hs0 Hst Ha. rewrite Hs in Hs0. injection Hs0 as <-. left. exists (m_mark_dirty m wo n). auto.
      + intros v Hv. destruct (rf_some_slot s i v HI Hv) as (m0 & Hs0 & _ & <-). rewrite Hs in Hs0. injection Hs0 as <-.
        apply mem_in_head.
      + intros off len g [[= <- <- <-]|[]] Hnz. eexists. split; [reflexivity|].
        unfold m_is_dirty. cbn [m_mark_dirty r_start r_len r_dmin r_dmax]. lia.
      + intros mi' [= <-]. unfold m_is_dirty. cbn [m_mark_dirty r_start r_len r_dmin r_dmax]. intros Hd. right. exists m. split; [exact Hs|lia].
      + split; [now rewrite rf_upd|]. intros mi Hs0 Hst. rewrite Hs in Hs0. injection Hs0 as <-. eexists. split; [reflexivity|exact Hst].
    - (* the length changes: the common tail on s itself *)
      rewrite upd_upd, (wid_upd_wput (set_mem s _) i _ m Hs).
      pose proof (grow_wobs s s s i m (r_reserved m) (mem_write (mem s) (r_start m + wo) f n) wo f n nl HI) as W.
      rewrite m_set_reserved_same in W. unfold len_ev in W. rewrite N.eqb_refl in W. apply W; auto; apply N.le_refl. }
  destruct (r_reserved m =? 0); [discriminate|].
  destruct (double_until 64 (r_reserved m) nl) as [nr|e0|] eqn:Ed; try discriminate.
  destruct (inv_region_aligned s i m HI Hs) as (_ & Hmod & _). cbn [snd rext] in Hmod.
  apply (double_until_mod _ _ _ _ Hmod) in Ed as Hnrm. clear Hmod. apply double_until_ge in Ed.
  rewrite !(upd_some _ i (fun m0 => m_set_reserved m0 nr) m Hs).
  destruct (is_last_anything s i).
  { (* extension of the last region *)
    destruct (negb (ok_set_reserved m nr)); [discriminate|]. cbv zeta.
    destruct (set_min_len_grows (put_slot s i (Some (m_set_reserved m nr))) (r_start m + nr)) as (fl & Esh & Hge & _).
    unfold setlen_ev. rewrite Esh.
    change (set_file_len (put_slot s i ?y) fl) with (put_slot (set_file_len s fl) i y).
    rewrite finish_write_put. destruct (_ && _); [|discriminate]. intros [= <- _].
    apply (grow_wobs s (set_file_len s fl) _ i m nr); auto; try lia. now rewrite slot_put_slot, N.eqb_refl. }
  assert (Hrel : relocate s i m f n wo nl nr cl = AOk (s', r) -> WObs s i m s' (relocate_events s i m f n wo nl nr cl))
    by (apply reloc_wobs; auto; lia).
  destruct (aget (r_start m + r_reserved m) (holes s)) as [gap|] eqn:Eg; [|exact Hrel].
  destruct (N.leb_spec (nr - r_reserved m) gap) as [Hgap|]; [|exact Hrel].
  (* expansion into the adjacent hole *)
  destruct (roc_succeeds s _ _ gap Eg Hgap) as (H & Q & ->). cbn [abind].
  destruct (negb (ok_set_reserved m nr)); [discriminate|].
  rewrite (upd_some (set_holes s H Q) i _ m Hs), finish_write_put. destruct (_ && _); [|discriminate]. intros [= <- _].
  pose proof (grow_wobs s (set_holes s H Q) (put_slot (set_holes s H Q) i (Some (m_set_reserved m nr))) i m nr
                (mem_write (mem s) (r_start m + wo) f n) wo f n nl HI Hs) as W.
  unfold len_ev in W. cbn [file_len set_holes] in W. rewrite N.eqb_refl in W. apply W; auto; try lia.
  now rewrite slot_put_slot, N.eqb_refl.
Qed.

Lemma ok_write orc s o id f n at_ tr :
  Inv s ->
  step s o = with_region s id (fun i => write_with s i f n at_ tr) ->
  op_ids s o = [id] -> closer s o = CEnd ->
  body_events orc s o = with_region_ev s id (fun i => write_events s i f n at_ tr) ->
  step_ok orc s o.
Proof.
  intros HI Est Eid Ecl Ebody. apply (with_region_at orc s o id _ _ _ Est Ebody (ok_of_err orc s o _ HI)).
  intros i mi Hs Hid Ek Eb. destruct (write_with s i f n at_ tr) as [[s' r]|s1 e|] eqn:Ew.
  - destruct (write_wobs s i mi f n at_ tr s' r HI Hs Ew) as (datas & newrec & Ee & HM).
    apply (ok_of_ms orc s o s' r datas i newrec HI Ek Ecl); [now rewrite Eid, <- Hid|now rewrite Eb].
  - rewrite (write_with_err s i f n at_ tr s1 e HI Ew) in Ek. apply (ok_of_err orc s o e HI Ek).
  - apply (ok_of_panic orc s o HI Ek).
Qed.
