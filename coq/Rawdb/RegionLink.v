(* The LAYER LINK (DESIGN.md 2.4): through any history of the allocator model, every region behaves
   as an independent byte vector with the operations and error rules of Vec/RegionSpec.v (and of
   Vec/CvRegion.v, the copy of that interface the compressed-vector model is written against):
   `link_run`.  It composes C01 (AllocRefineAll.c01_refines_step_strong) with the correspondence
   between a reference region and its byte list (RegionLinkSpec.v). *)
From Anydb Require Import Common.Base Gen.Consts Rawdb.Alloc Rawdb.AllocSpec Rawdb.AllocInv Rawdb.AllocFacts
  Rawdb.AllocNoPanic Rawdb.AllocRefine Rawdb.AllocRefineC Rawdb.AllocRefineAll
  Rawdb.InvStep Rawdb.RegionLinkSpec.
From Anydb Require Vec.RegionSpec Vec.CvRegion.

Definition region_bytes (s : st) (id : N) : option (list N) :=
  option_map bytes_of (sget id (sp_regions (abs s))).

Lemma region_bytes_some s id b :
  region_bytes s id = Some b -> exists r, sget id (sp_regions (abs s)) = Some r /\ bytes_of r = b.
Proof. unfold region_bytes. destruct (sget id (sp_regions (abs s))) as [r|]; [|discriminate]. intros [= <-]. eauto. Qed.

Lemma region_bytes_concrete s id i m :
  Inv s -> slot s i = Some m -> r_id m = id ->
  region_bytes s id = Some (map (fun k => mem s (r_start m + k)) (seqN 0 (N.to_nat (r_len m)))).
Proof.
  intros HI Hs Hid. unfold region_bytes. rewrite (sget_abs_lives s id i m (inv_ids s HI) (conj Hs Hid)). reflexivity.
Qed.

Lemma region_bytes_step s o id :
  Inv s -> op_fits_strong s o ->
  region_bytes (fst (step_total s o)) id = option_map bytes_of (sget id (sp_regions (fst (spec_step (abs s) o))))
  /\ res_agree (snd (step_total s o)) (snd (spec_step (abs s) o)).
Proof.
  intros HI Hf. destruct (c01_refines_step_strong s o HI Hf) as [[Hr _] Hres]. split; [|exact Hres].
  unfold region_bytes. specialize (Hr id).
  destruct (sget id (sp_regions (abs (fst (step_total s o))))) as [x|],
           (sget id (sp_regions (fst (spec_step (abs s) o)))) as [y|]; cbn [option_map]; try contradiction; [|reflexivity].
  f_equal. now apply bytes_of_sreg_eq.
Qed.

Lemma res_agree_ok r : res_agree r (Ok OUnit) -> is_ok r = true.
Proof. destruct r; cbn; auto. Qed.
Lemma res_agree_err r e : res_agree r (Err e) -> r = Err e.
Proof. destruct r; cbn; try contradiction. now intros ->. Qed.

(* the step o does to region id, which holds b, what an operation of the interface with outcome x
   does to b; a refusal is the interface's error Ex, reported by the allocator as Ea *)
Definition link_outcome {E} (s : st) (o : op) (id : N) (b : list N) (x : res E (list N)) (Ex : E) (Ea : aerr) : Prop :=
  match x with
  | Ok b' => region_bytes (fst (step_total s o)) id = Some b' /\ is_ok (snd (step_total s o)) = true
  | Err e => e = Ex /\ region_bytes (fst (step_total s o)) id = Some b /\ snd (step_total s o) = Err Ea
  | Panic => False
  end.

Lemma link_outcome_bytes {E} s o id b (x : res E (list N)) Ex Ea :
  link_outcome s o id b x Ex Ea ->
  region_bytes (fst (step_total s o)) id = Some (match x with Ok b' => b' | _ => b end).
Proof. destruct x; cbn [link_outcome]; tauto. Qed.

(* y is what the reference does to the entry r of the name, x what the interface does to its bytes *)
Lemma link_outcome_of {E} s o id r (y : res aerr sreg) (x : res E (list N)) Ex Ea :
  Inv s -> op_fits_strong s o -> sget id (sp_regions (abs s)) = Some r ->
  spec_step (abs s) o = match y with
                        | Ok r' => (mkSpec (sput id r' (sp_regions (abs s))) (sp_held (abs s)), Ok OUnit)
                        | Err e => (abs s, Err e)
                        | Panic => (abs s, Panic)
                        end ->
  match y with Ok r' => x = Ok (bytes_of r') | Err e => e = Ea /\ x = Err Ex | Panic => False end ->
  link_outcome s o id (bytes_of r) x Ex Ea.
Proof.
  intros HI Hf Hr Hsp Hxy. destruct (region_bytes_step s o id HI Hf) as [H1 H2]. rewrite Hsp in H1, H2.
  destruct y as [r'|e|]; [subst x|destruct Hxy as [-> ->]|contradiction]; cbn [link_outcome fst snd sp_regions] in *.
  - rewrite sget_sput, N.eqb_refl in H1. split; [exact H1|now apply res_agree_ok].
  - rewrite Hr in H1. split; [reflexivity|]. split; [exact H1|now apply res_agree_err].
Qed.

Theorem link_write_at s id f n a b :
  Inv s -> op_fits_strong s (WriteAt id f n a) -> region_bytes s id = Some b ->
  link_outcome s (WriteAt id f n a) id b (RegionSpec.r_write_at b (data_of f n) a)
    RegionSpec.WriteOutOfBounds Alloc.WriteOutOfBounds.
Proof.
  intros HI Hf Hb. destruct (region_bytes_some s id b Hb) as (r & Hr & <-).
  apply (link_outcome_of s _ id r (s_write r f n (Some a) false) _ _ _ HI Hf Hr);
    [cbn [spec_step]; now rewrite Hr|apply s_write_at_link].
Qed.

Theorem link_truncate_write s id f n a b :
  Inv s -> op_fits_strong s (TruncWrite id f n a) -> region_bytes s id = Some b ->
  link_outcome s (TruncWrite id f n a) id b (RegionSpec.r_truncate_write b a (data_of f n))
    RegionSpec.WriteOutOfBounds Alloc.WriteOutOfBounds.
Proof.
  intros HI Hf Hb. destruct (region_bytes_some s id b Hb) as (r & Hr & <-).
  apply (link_outcome_of s _ id r (s_write r f n (Some a) true) _ _ _ HI Hf Hr);
    [cbn [spec_step]; now rewrite Hr|apply s_trunc_write_link].
Qed.

(* Region::write: write_at at the current length *)
Theorem link_append s id f n b :
  Inv s -> op_fits_strong s (Write id f n) -> region_bytes s id = Some b ->
  exists b', RegionSpec.r_write_at b (data_of f n) (len b) = Ok b'
             /\ region_bytes (fst (step_total s (Write id f n))) id = Some b'
             /\ is_ok (snd (step_total s (Write id f n))) = true.
Proof.
  intros HI Hf Hb. destruct (region_bytes_some s id b Hb) as (r & Hr & <-).
  destruct (s_append_link r f n) as (r' & Hw & Hl). exists (bytes_of r'). rewrite len_bytes_of. split; [exact Hl|].
  (* never refused: the error type of the interface side is immaterial, take unit *)
  apply (link_outcome_of s _ id r (Ok r') (Ok (bytes_of r')) tt Alloc.WriteOutOfBounds HI Hf Hr);
    [cbn [spec_step]; now rewrite Hr, Hw|reflexivity].
Qed.

Theorem link_truncate s id from b :
  Inv s -> op_fits_strong s (Truncate id from) -> region_bytes s id = Some b ->
  link_outcome s (Truncate id from) id b (RegionSpec.r_truncate b from)
    RegionSpec.TruncateInvalid Alloc.TruncateInvalid.
Proof.
  intros HI Hf Hb. destruct (region_bytes_some s id b Hb) as (r & Hr & <-).
  apply (link_outcome_of s _ id r (s_truncate r from) _ _ _ HI Hf Hr);
    [cbn [spec_step]; rewrite Hr; unfold s_truncate; now destruct (s_len r <? from)|apply s_truncate_link].
Qed.

(* create_region_if_needed *)
Theorem link_create s id hold :
  Inv s -> op_fits_strong s (Create id hold) ->
  region_bytes (fst (step_total s (Create id hold))) id
    = Some (match region_bytes s id with Some b => b | None => [] end)
  /\ is_ok (snd (step_total s (Create id hold))) = true.
Proof.
  intros HI Hf. destruct (region_bytes_step s (Create id hold) id HI Hf) as [H1 H2]. revert H1 H2.
  change (region_bytes s id) with (option_map bytes_of (sget id (sp_regions (abs s)))). cbn [spec_step].
  destruct (sget id (sp_regions (abs s))) as [r|] eqn:Hr; cbn [fst snd sp_regions option_map].
  - rewrite Hr. cbn [option_map]. intros H1 H2. split; [exact H1|now apply res_agree_ok].
  - rewrite sget_sput, N.eqb_refl. cbn [option_map]. rewrite bytes_of_nil. intros H1 H2.
    split; [exact H1|now apply res_agree_ok].
Qed.

(* remove_region; refused while another handle is alive *)
Theorem link_remove s id b :
  Inv s -> op_fits_strong s (Remove id) -> region_bytes s id = Some b ->
  (region_bytes (fst (step_total s (Remove id))) id = None /\ is_ok (snd (step_total s (Remove id))) = true)
  \/ (region_bytes (fst (step_total s (Remove id))) id = Some b
      /\ snd (step_total s (Remove id)) = Err RegionStillReferenced).
Proof.
  intros HI Hf Hb. destruct (region_bytes_some s id b Hb) as (r & Hr & <-).
  destruct (region_bytes_step s (Remove id) id HI Hf) as [H1 H2]. revert H1 H2.
  cbn [spec_step]. rewrite Hr. destruct (sp_is_held (abs s) id); cbn [fst snd sp_regions].
  - rewrite Hr. cbn [option_map]. intros H1 H2. right. split; [exact H1|now apply res_agree_err].
  - rewrite sget_sdel, N.eqb_refl. cbn [option_map]. intros H1 H2. left. split; [exact H1|now apply res_agree_ok].
Qed.

Theorem link_absent s o id :
  Inv s -> op_fits_strong s o -> region_bytes s id = None ->
  (exists f n, o = Write id f n) \/ (exists f n a, o = WriteAt id f n a) \/ (exists f n a, o = TruncWrite id f n a)
  \/ (exists from, o = Truncate id from) \/ o = Remove id ->
  region_bytes (fst (step_total s o)) id = None /\ snd (step_total s o) = Err Alloc.RegionNotFound.
Proof.
  intros HI Hf Hb Ho. destruct (region_bytes_step s o id HI Hf) as [H1 H2]. revert H1 H2.
  assert (Hr : sget id (sp_regions (abs s)) = None).
  { unfold region_bytes in Hb. destruct (sget id (sp_regions (abs s))); [discriminate|reflexivity]. }
  destruct Ho as [(f & n & ->)|[(f & n & a & ->)|[(f & n & a & ->)|[(from & ->)| ->]]]];
    cbn [spec_step]; rewrite Hr; cbn [fst snd sp_regions]; rewrite Hr; cbn [option_map];
    intros H1 H2; (split; [exact H1|now apply res_agree_err]).
Qed.

Theorem link_frame s o ids id' :
  Inv s -> op_fits_strong s o -> op_ids o = Some ids -> ~ In id' ids ->
  region_bytes (fst (step_total s o)) id' = region_bytes s id'.
Proof.
  intros HI Hf Hi Hn. destruct (region_bytes_step s o id' HI Hf) as [H1 _]. rewrite H1.
  rewrite (spec_step_frame (abs s) o ids id' Hi Hn). reflexivity.
Qed.

Definition reg_apply (id : N) (o : op) (b : list N) : list N :=
  let on id' (x : res RegionSpec.rerr (list N)) := if id' =? id then match x with Ok b' => b' | _ => b end else b in
  match o with
  | Write id' f n => on id' (RegionSpec.r_write_at b (data_of f n) (len b))
  | WriteAt id' f n a => on id' (RegionSpec.r_write_at b (data_of f n) a)
  | TruncWrite id' f n a => on id' (RegionSpec.r_truncate_write b a (data_of f n))
  | Truncate id' from => on id' (RegionSpec.r_truncate b from)
  | _ => b
  end.

(* operations that cannot make the name `id` disappear *)
Definition keeps (id : N) (o : op) : Prop :=
  match o with
  | Remove id' => id' <> id
  | Rename a b => a <> id /\ b <> id
  | Retain keep => existsb (fun y => y =? id) keep = true
  | Reopen => False
  | _ => True
  end.

Theorem link_step_region s o id b :
  Inv s -> op_fits_strong s o -> keeps id o -> region_bytes s id = Some b ->
  region_bytes (fst (step_total s o)) id = Some (reg_apply id o b).
Proof.
  intros HI Hf Hk Hb.
  assert (Hfr : forall ids, op_ids o = Some ids -> ~ In id ids ->
                region_bytes (fst (step_total s o)) id = Some b).
  { intros ids Hi Hn. rewrite (link_frame s o ids id HI Hf Hi Hn). exact Hb. }
  assert (Hon : forall id' v, op_ids o = Some [id'] ->
                  (id' = id -> region_bytes (fst (step_total s o)) id = Some v) ->
                  region_bytes (fst (step_total s o)) id = Some (if id' =? id then v else b)).
  { intros id' v Hi Hv. destruct (N.eqb_spec id' id) as [E|E]; [auto|]. apply (Hfr [id'] Hi). intros [H|[]]. congruence. }
  destruct o; cbn [reg_apply keeps] in *; try exact (Hfr [] eq_refl (fun H => H)).
  - replace b with (if id0 =? id then b else b) by now destruct (id0 =? id).
    apply Hon; [reflexivity|intros ->]. destruct (link_create s id hold HI Hf) as [H _]. now rewrite H, Hb.
  - apply Hon; [reflexivity|intros ->].
    destruct (link_append s id f n b HI Hf Hb) as (b' & -> & H & _). exact H.
  - apply Hon; [reflexivity|intros ->]. exact (link_outcome_bytes _ _ _ _ _ _ _ (link_write_at s id f n at_ b HI Hf Hb)).
  - apply Hon; [reflexivity|intros ->]. exact (link_outcome_bytes _ _ _ _ _ _ _ (link_truncate_write s id f n at_ b HI Hf Hb)).
  - apply Hon; [reflexivity|intros ->]. exact (link_outcome_bytes _ _ _ _ _ _ _ (link_truncate s id from b HI Hf Hb)).
  - apply (Hfr [id0; new_id] eq_refl). intros [H|[H|[]]]; [now destruct Hk|now destruct Hk as [_ ?]].
  - apply (Hfr [id0] eq_refl). intros [H|[]]. contradiction.
  - destruct (region_bytes_some s id b Hb) as (r & Hr & <-).
    destruct (region_bytes_step s (Retain keep) id HI Hf) as [H1 _]. rewrite H1. cbn [spec_step].
    destruct (existsb _ (sp_regions (abs s))); cbn [fst sp_regions]; [rewrite Hr; reflexivity|].
    rewrite (sget_filter_key (fun k => existsb (fun y => y =? k) keep)), Hk, Hr. reflexivity.
  - destruct (region_bytes_some s id b Hb) as (r & Hr & <-).
    destruct (region_bytes_step s (FlushRegion id0) id HI Hf) as [H1 _]. rewrite H1. cbn [spec_step].
    destruct (sget id0 (sp_regions (abs s))); cbn [fst]; rewrite Hr; reflexivity.
  - contradiction.
Qed.

(* gone: its metadata was never written *)
Theorem link_reopen s id b :
  Inv s -> region_bytes s id = Some b ->
  region_bytes (fst (step_total s Reopen)) id = Some b \/ region_bytes (fst (step_total s Reopen)) id = None.
Proof.
  intros HI Hb. destruct (region_bytes_some s id b Hb) as (r & Hr & <-).
  destruct (region_bytes_step s Reopen id HI (conj I I)) as [H1 _]. rewrite H1. cbn [spec_step fst sp_regions].
  rewrite (sget_filter_val s_persisted id _ (abs_wf s HI)), Hr. destruct (s_persisted r); auto.
Qed.

(* THE LINK over histories: as long as the name is not removed / renamed / dropped, region `id`
   evolves as the RegionSpec byte vector that receives the operations addressed to it and ignores
   all others, wherever the allocator places, grows or relocates extents *)
Theorem link_run id ops : forall s b,
  Inv s -> ops_ok s ops -> Forall (keeps id) ops -> region_bytes s id = Some b ->
  region_bytes (run s ops) id = Some (fold_left (fun b o => reg_apply id o b) ops b).
Proof.
  induction ops as [|o ops IH]; intros s b HI Hok Hk Hb; [exact Hb|].
  inversion Hok as [|s1 o1 ops1 Hf Hrest]; subst. inversion Hk as [|o2 ops2 Hko Hkr]; subst.
  rewrite run_cons. cbn [fold_left]. apply IH; auto.
  - now apply inv_step.
  - now apply link_step_region.
Qed.

(* the second premise is AllocErr.writes_fit at a write of n bytes to id, the second half of
   op_fits_strong: below it the size assertion of CvRegion's copy of the interface cannot fire *)
Lemma fits_len_bound s id n b :
  region_bytes s id = Some b ->
  (forall i m, find_id s id = Some i -> slot s i = Some m -> r_len m + n <= MAX_RESERVED_SIZE / 2) ->
  len b + n <= MAX_RESERVED_SIZE.
Proof.
  intros Hb Hf. destruct (region_bytes_some s id b Hb) as (r & Hr & <-). rewrite len_bytes_of.
  rewrite sget_abs in Hr. destruct (find_id s id) as [i|] eqn:Ei; [|discriminate].
  destruct (slot s i) as [m|] eqn:Es; [|discriminate]. inversion Hr; subst r. cbn [sview s_len].
  specialize (Hf i m eq_refl Es). lia.
Qed.

Lemma link_outcome_cv s o id b (x : res CvRegion.rerr (list N)) y Ex Ecv Ea :
  cv_res x = y -> (forall e, cv_err e = Ex -> e = Ecv) ->
  link_outcome s o id b y Ex Ea -> link_outcome s o id b x Ecv Ea.
Proof.
  intros <- He. destruct x as [b'|e|]; cbn [cv_res link_outcome]; [auto| |auto]. intros [H1 H2]. split; [now apply He|exact H2].
Qed.

Theorem link_write_at_cv s id f n a b :
  Inv s -> op_fits_strong s (WriteAt id f n a) -> region_bytes s id = Some b ->
  link_outcome s (WriteAt id f n a) id b (CvRegion.r_write_at b (data_of f n) a)
    CvRegion.WriteOutOfBounds Alloc.WriteOutOfBounds.
Proof.
  intros HI Hf Hb. pose proof (fits_len_bound s id n b Hb (proj2 Hf)) as Hbound.
  destruct (cv_write_at_equiv b (data_of f n) a) as [(_ & Hle & Hgt)|He]; [rewrite len_data_of in Hgt; lia|].
  apply (link_outcome_cv _ _ _ _ _ _ RegionSpec.WriteOutOfBounds _ _ He); [intros [] E; [reflexivity|discriminate E]|].
  exact (link_write_at s id f n a b HI Hf Hb).
Qed.

Theorem link_truncate_write_cv s id f n a b :
  Inv s -> op_fits_strong s (TruncWrite id f n a) -> region_bytes s id = Some b ->
  link_outcome s (TruncWrite id f n a) id b (CvRegion.r_truncate_write b a (data_of f n))
    CvRegion.WriteOutOfBounds Alloc.WriteOutOfBounds.
Proof.
  intros HI Hf Hb. pose proof (fits_len_bound s id n b Hb (proj2 Hf)) as Hbound.
  destruct (cv_truncate_write_equiv b (data_of f n) a) as [(_ & Hle & Hgt)|He]; [rewrite len_data_of in Hgt; lia|].
  apply (link_outcome_cv _ _ _ _ _ _ RegionSpec.WriteOutOfBounds _ _ He); [intros [] E; [reflexivity|discriminate E]|].
  exact (link_truncate_write s id f n a b HI Hf Hb).
Qed.

Theorem link_truncate_cv s id from b :
  Inv s -> op_fits_strong s (Truncate id from) -> region_bytes s id = Some b ->
  link_outcome s (Truncate id from) id b (CvRegion.r_truncate b from)
    CvRegion.TruncateInvalid Alloc.TruncateInvalid.
Proof.
  intros HI Hf Hb.
  apply (link_outcome_cv _ _ _ _ _ _ RegionSpec.TruncateInvalid _ _ (cv_truncate_equiv b from)); [intros [] E; [discriminate E|reflexivity]|].
  exact (link_truncate s id from b HI Hf Hb).
Qed.

Lemma cv_parametric (A B : Type) (g : A -> B) (r bs : list A) a n :
  map_res g (CvRegion.r_write_at r bs a) = CvRegion.r_write_at (map g r) (map g bs) a
  /\ map_res g (CvRegion.r_truncate r n) = CvRegion.r_truncate (map g r) n
  /\ map_res g (CvRegion.r_truncate_write r a bs) = CvRegion.r_truncate_write (map g r) a (map g bs).
Proof. split; [apply cv_write_at_map|split; [apply cv_truncate_map|apply cv_truncate_write_map]]. Qed.

(* the hypotheses are satisfiable *)
Example link_example :
  let ops := [Create 1 false; Write 1 (gen_byte 1) 5000; Create 2 false; Write 2 (gen_byte 2) 9000;
              WriteAt 1 (gen_byte 3) 100 4990; Flush; Truncate 1 3000] in
  ops_ok (init 0) ops /\ Forall (keeps 1) (tl ops) /\
  region_bytes (fst (step_total (init 0) (Create 1 false))) 1 = Some [].
Proof.
  cbv zeta. split; [|split].
  - apply ops_ok_cons; [split; exact I|].
    repeat (first [apply ops_ok_nil | apply ops_ok_cons;
      [split; [cbn [op_fits]; try exact I; discriminate|
               try exact I; intros i m Hf Hs; vm_compute in Hf; inversion Hf; subst i; vm_compute in Hs; inversion Hs; subst m;
               vm_compute; discriminate]|]]).
  - cbn [tl]. repeat constructor; cbn [keeps]; auto.
  - vm_compute. reflexivity.
Qed.
