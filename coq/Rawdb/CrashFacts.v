(* A run of the crash monitor stops at the first rejected event (`mon_run_app_eq`), so an accepted
   trace has every prefix accepted: every prefix is a crash point.  Props quote
   `possible_after_metasync`. *)
From Anydb Require Import Common.Base Rawdb.Crash.

Lemma mon_run_cons m e t :
  mon_run m (e :: t) = if snd (mon_step m e) then mon_run (fst (mon_step m e)) t else (fst (mon_step m e), false).
Proof. cbn [mon_run]. destruct (mon_step m e) as [m1 [|]]; reflexivity. Qed.

Lemma mon_run_one m e : mon_run m [e] = mon_step m e.
Proof. rewrite mon_run_cons. destruct (mon_step m e) as [m1 [|]]; reflexivity. Qed.

Lemma mon_run_app_eq m t1 t2 :
  mon_run m (t1 ++ t2) = if snd (mon_run m t1) then mon_run (fst (mon_run m t1)) t2 else mon_run m t1.
Proof.
  revert m. induction t1 as [|e t1 IH]; intros m; [reflexivity|].
  cbn [app]. rewrite !mon_run_cons. destruct (snd (mon_step m e)); [apply IH|reflexivity].
Qed.

Lemma mon_run_app m t1 t2 :
  snd (mon_run m (t1 ++ t2)) = true ->
  snd (mon_run m t1) = true /\ snd (mon_run (fst (mon_run m t1)) t2) = true.
Proof.
  rewrite mon_run_app_eq. destruct (snd (mon_run m t1)) eqn:E; [auto|]. rewrite E. discriminate.
Qed.

Lemma mon_run_snoc m t e :
  snd (mon_run m (t ++ [e])) = true ->
  snd (mon_run m t) = true /\ snd (mon_step (fst (mon_run m t)) e) = true
  /\ fst (mon_run m (t ++ [e])) = fst (mon_step (fst (mon_run m t)) e).
Proof.
  intros H. destruct (mon_run_app _ _ _ H) as [H1 H2].
  rewrite mon_run_app_eq, H1, mon_run_one in *. auto.
Qed.

Lemma possible_after_metasync m i :
  possible (fst (mon_step m CMetaSync)) i = [dur_of (fst (mon_step m CMetaSync)) i].
Proof. reflexivity. Qed.
