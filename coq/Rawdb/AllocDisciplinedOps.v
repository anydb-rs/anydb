(* The operations without sync: each is `step_ok`, a triple from the coupling with the state before to the
   coupling with the state after, by `ms_sound`.  `ok_of_*` conclude it from a form of the outcome (an MS
   record, an error, a panic, no slot touched), `MS_*` build the record, `ok_<operation>` is the result
   for one operation. *)
From Anydb Require Import Common.Base Common.ListFacts Gen.Consts Rawdb.AMap Rawdb.Alloc Rawdb.AllocInv
  Rawdb.AMapFacts Rawdb.CoverFacts Rawdb.AllocErr Rawdb.InvLayout Rawdb.InvRun
  Rawdb.Crash Rawdb.CrashInv Rawdb.AllocEvents Rawdb.AllocDisciplined.

Definition step_ok (orc : N -> N -> bool) (s : st) (o : op) : Prop :=
  triple (Cpl s) (step_events_o orc s o) (Cpl (fst (step_total s o))).

Lemma ok_of_ms orc s o s' r datas i newrec :
  Inv s -> step s o = AOk (s', r) -> closer s o = CEnd ->
  MS s s' (op_ids s o) datas i newrec -> body_events orc s o = meta_body s s' datas i newrec ->
  step_ok orc s o.
Proof.
  intros HI E Ec HM Eb. pose proof (inv_step s o HI) as HI'.
  unfold step_ok, step_total, step_events_o in *. rewrite E, Ec, Eb in *. exact (ms_sound _ _ _ _ _ _ HI HI' HM).
Qed.

(* no slot changes: a one-slot change at a slot beyond the regions file, which has no version to name *)
Lemma MS_no_slot s s' ids :
  (forall j, slot s' j = slot s j) -> (forall j, rf s' j = rf s j) -> pend s' = pend s -> file_len s <= file_len s' ->
  MS s s' ids [] (len (rfile s)) None.
Proof.
  intros Hsl Hrf E3 E4.
  refine {| ms_len := _; ms_frame := _; ms_pend := _; ms_old := _; ms_id := _; ms_datas := _; ms_nd := _; ms_new := _ |}.
  - exact E4.
  - intros j _. auto.
  - intros p z. rewrite E3. auto.
  - intros mi a Hs Hst Ha. left. exists mi. rewrite Hsl. auto.
  - intros v. unfold rf. rewrite get_none by apply N.le_refl. discriminate.
  - intros off len f [].
  - intros mi' Hs Hnd. right. exists mi'. rewrite <- Hsl. repeat split; auto. lia.
  - split; [apply Hrf|]. intros mi Hs Hst. exists mi. rewrite Hsl. auto.
Qed.

Lemma file_len_upd s i f : file_len (upd s i f) = file_len s.
Proof. unfold upd. destruct (slot s i); reflexivity. Qed.
Lemma pend_upd s i f : pend (upd s i f) = pend s.
Proof. unfold upd. destruct (slot s i); reflexivity. Qed.
Lemma rf_upd s i f j : rf (upd s i f) j = rf s j.
Proof. unfold rf, upd. destruct (slot s i); reflexivity. Qed.

Lemma rf_set_at s s' i x j :
  rfile s' = set_at (rfile s) (N.to_nat i) x None -> rf s' j = if j =? i then x else rf s j.
Proof.
  intros E. unfold rf, get. rewrite E, nth_opt_set_at. destruct (N.eqb_spec j i) as [->|Hne].
  - rewrite Nat.eqb_refl. now destruct x.
  - destruct (Nat.eqb_spec (N.to_nat j) (N.to_nat i)); [lia|].
    destruct (nth_opt (rfile s) (N.to_nat j)) as [[v|]|]; try reflexivity. destruct (Nat.ltb _ _); reflexivity.
Qed.

Lemma file_len_wput s i x : file_len (wput s i x) = file_len s.
Proof. now rewrite wput_nf. Qed.
Lemma pend_wput s i x : pend (wput s i x) = pend s.
Proof. now rewrite wput_nf. Qed.
Lemma rf_wput s i x j : r_state x = ST_WRITE -> rf (wput s i x) j = if j =? i then Some (srec x) else rf s j.
Proof. intros E. apply rf_set_at. now rewrite wput_nf, E. Qed.

(* slot i, which held m, is rewritten with x and x goes to the regions file (AllocOutcome.wput); sB
   has the table and the regions file of s *)
Lemma MS_wput s sB i m x ids datas :
  Inv s -> slot s i = Some m -> mem_in (r_id m) ids = true ->
  slots sB = slots s -> rfile sB = rfile s -> file_len s <= file_len sB ->
  (forall p z, In (p, z) (pend s) -> In (p, z) (pend sB)) ->
  r_state x = ST_WRITE ->
  (r_state m <> ST_WRITE ->
     (r_start x = r_start m /\ r_reserved m <= r_reserved x) \/ In (r_start m, r_reserved m) (pend sB)) ->
  (forall off len f, In (off, len, f) datas -> len <> 0 ->
     r_start x <= off /\ off + len <= r_start x + r_len x /\ m_is_dirty x = true) ->
  (m_is_dirty x = false -> r_len x = 0 \/ (m_is_dirty m = false /\ r_start x = r_start m /\ r_len x <= r_len m)) ->
  MS s (wput sB i x) ids datas i (Some (Some (srec x))).
Proof.
  intros HI Hs Hid Esl Erf Hlen Hp Hst Hold Hdat Hnd.
  assert (Hsi : slot (wput sB i x) i = Some (m_set_state x ST_FLUSH))
    by (rewrite slot_wput, N.eqb_refl; unfold fin; now rewrite Hst).
  refine {| ms_len := _; ms_frame := _; ms_pend := _; ms_old := _; ms_id := _; ms_datas := _; ms_nd := _; ms_new := _ |}.
  - now rewrite file_len_wput.
  - intros j Hne. rewrite slot_wput, rf_wput by exact Hst. destruct (N.eqb_spec j i); [contradiction|].
    split; [now apply slot_slots|unfold rf; now rewrite Erf].
  - intros p z. rewrite pend_wput. apply Hp.
  - intros mi a Hs0 Hst0 Ha. rewrite Hs in Hs0. injection Hs0 as <-. destruct (Hold Hst0) as [[H1 H2]|Hin].
    + left. eexists. split; [exact Hsi|]. cbn [m_set_state r_state r_start r_reserved]. split; [discriminate|lia].
    + right. exists (r_start m), (r_reserved m). rewrite pend_wput. auto.
  - intros v Hv. destruct (rf_some_slot s i v HI Hv) as (m0 & Hs0 & _ & <-). rewrite Hs in Hs0.
    injection Hs0 as <-. exact Hid.
  - intros off len f Hin Hne. eexists. split; [exact Hsi|]. exact (Hdat off len f Hin Hne).
  - intros mi' Hs0 Hd. rewrite Hsi in Hs0. injection Hs0 as <-. destruct (Hnd Hd) as [H0|H1]; [left; exact H0|].
    right. exists m. split; [exact Hs|exact H1].
  - rewrite rf_wput, N.eqb_refl by exact Hst. split; [reflexivity|]. eexists. split; [exact Hsi|]. split; reflexivity.
Qed.

(* the metadata of slot i alone is rewritten, no data written: truncate, rename *)
Lemma MS_wput_meta s i m x ids :
  Inv s -> slot s i = Some m -> mem_in (r_id m) ids = true -> r_state x = ST_WRITE ->
  r_start x = r_start m -> r_reserved x = r_reserved m -> r_len x <= r_len m ->
  r_dmin x = r_dmin m -> r_dmax x = r_dmax m ->
  MS s (wput s i x) ids [] i (Some (Some (srec x))).
Proof.
  intros HI Hs Hid Hst Es Er Hl Emin Emax. apply (MS_wput s s i m); auto.
  - apply N.le_refl.
  - intros _. left. lia.
  - intros off len f [].
  - unfold m_is_dirty. rewrite Emin, Emax. intros Hd. right. split; [exact Hd|]. lia.
Qed.

Lemma wput_body s sB i x datas :
  meta_body s (wput sB i x) datas i (Some (Some (srec x))) = len_ev s sB ++ map data_ev datas ++ [CMeta i (Some (srec x))].
Proof. unfold meta_body, len_ev. now rewrite file_len_wput. Qed.

Lemma meta_ev_upd s i g m :
  slot s i = Some m -> r_state (g m) = ST_WRITE -> meta_ev (upd s i g) i = [CMeta i (Some (srec (g m)))].
Proof. intros Hs E. unfold meta_ev. rewrite slot_upd, N.eqb_refl, Hs. cbn [option_map]. now rewrite E. Qed.

Lemma closer_not_ok s o : (forall x, step s o <> AOk x) -> closer s o = CEnd.
Proof.
  intros H. unfold closer. destruct o; try reflexivity;
    destruct (step s _) as [x| |] eqn:E; try reflexivity; destruct (H x eq_refl).
Qed.

Lemma ok_of_no_slot orc s o s' :
  Inv s -> fst (step_total s o) = s' ->
  (forall j, slot s' j = slot s j) -> (forall j, rf s' j = rf s j) -> pend s' = pend s -> file_len s' = file_len s ->
  step_events_o orc s o = [COp (op_ids s o); CEnd] -> step_ok orc s o.
Proof.
  intros HI <- E2 E3 E4 E5 E6. unfold step_ok. rewrite E6.
  replace [COp (op_ids s o); CEnd] with (meta_step_events (op_ids s o) s (fst (step_total s o)) [] (len (rfile s)) None)
    by (unfold meta_step_events, meta_body, len_ev; now rewrite E5, N.eqb_refl).
  apply ms_sound; [exact HI|apply inv_step; exact HI|apply MS_no_slot; auto; lia].
Qed.

Lemma ok_of_refused orc s o : Inv s -> fst (step_total s o) = s -> (forall x, step s o <> AOk x) -> step_ok orc s o.
Proof.
  intros HI E H. apply (ok_of_no_slot orc s o s); auto.
  unfold step_events_o. rewrite (closer_not_ok s o H).
  destruct (step s o) as [x| |]; [destruct (H x eq_refl)|reflexivity|reflexivity].
Qed.

Lemma ok_of_err orc s o e : Inv s -> step s o = AErr s e -> step_ok orc s o.
Proof. intros HI E. apply ok_of_refused; [exact HI|unfold step_total|intros x]; now rewrite E. Qed.

Lemma ok_of_panic orc s o : Inv s -> step s o = APanic -> step_ok orc s o.
Proof. intros HI E. apply ok_of_refused; [exact HI|unfold step_total|intros x]; now rewrite E. Qed.

Lemma ok_of_same orc s o s' r :
  Inv s -> step s o = AOk (s', r) -> closer s o = CEnd -> body_events orc s o = [] ->
  (forall j, slot s' j = slot s j) -> (forall j, rf s' j = rf s j) -> pend s' = pend s -> file_len s' = file_len s ->
  step_ok orc s o.
Proof.
  intros HI E Ec Eb E2 E3 E4 E5. apply (ok_of_no_slot orc s o s'); auto.
  - unfold step_total. now rewrite E.
  - unfold step_events_o. now rewrite E, Ec, Eb.
Qed.

Lemma with_region_at orc s o id k kev (P : Prop) :
  step s o = with_region s id k -> body_events orc s o = with_region_ev s id kev ->
  (step s o = AErr s RegionNotFound -> P) ->
  (forall i mi, slot s i = Some mi -> r_id mi = id -> step s o = k i -> body_events orc s o = kev i -> P) -> P.
Proof.
  intros E Eb Hn H. unfold with_region_ev in Eb.
  destruct (with_region_cases s id k) as [(i & mi & Ef & Hs & Hid & Ek)|[Ef Ek]]; rewrite Ek in E; rewrite Ef in Eb.
  - exact (H i mi Hs Hid E Eb).
  - exact (Hn E).
Qed.

Lemma ok_drop orc s id : Inv s -> step_ok orc s (DropHandle id).
Proof. intros HI. eapply (ok_of_same orc s (DropHandle id) _ OUnit HI eq_refl); reflexivity. Qed.

Lemma ok_set_min_len orc s n : Inv s -> step_ok orc s (SetMinLen n).
Proof.
  intros HI. destruct (set_min_len_shape s n) as (fl & E & Hge).
  apply (ok_of_ms orc s (SetMinLen n) (set_min_len s n) OUnit [] (len (rfile s)) None HI eq_refl eq_refl).
  - rewrite E. apply MS_no_slot; auto.
  - unfold meta_body. cbn [map app]. now rewrite app_nil_r.
Qed.

Lemma ok_truncate orc s id from : Inv s -> step_ok orc s (Truncate id from).
Proof.
  intros HI. apply (with_region_at orc s (Truncate id from) id (fun i => truncate s i from) _ _ eq_refl eq_refl (ok_of_err orc s _ _ HI)).
  intros i mi Hs Hid. unfold truncate. rewrite Hs. destruct (from =? r_len mi) eqn:E1; intros Estep Eb.
  { now apply (ok_of_same orc s _ s OUnit HI). }
  destruct (r_len mi <? from) eqn:E2. { apply (ok_of_err orc s _ _ HI Estep). }
  destruct (negb (ok_set_len mi from)). { apply (ok_of_panic orc s _ HI Estep). }
  rewrite N.eqb_sym in E1. rewrite (wid_upd_wput s i _ mi Hs) in Estep.
  eapply (ok_of_ms orc s _ _ OUnit [] i _ HI Estep eq_refl).
  - apply (MS_wput_meta s i mi); rewrite ?m_set_len_eq, ?E1; cbn [op_ids r_state r_start r_reserved r_len r_dmin r_dmax]; auto.
    + rewrite Hid. apply mem_in_head.
    + lia.
  - rewrite Eb, wput_body, (meta_ev_upd s i _ mi Hs) by now rewrite m_set_len_eq, E1. unfold len_ev. now rewrite N.eqb_refl.
Qed.

Lemma MS_set_held s s' h ids datas i newrec : MS s s' ids datas i newrec -> MS s (set_held s' h) ids datas i newrec.
Proof. intros [H1 H2 H3 H4 H5 H6 H7 H8]. constructor; assumption. Qed.

Lemma ok_rename orc s id new_id : Inv s -> step_ok orc s (Rename id new_id).
Proof.
  intros HI. apply (with_region_at orc s (Rename id new_id) id (fun i => rename s i new_id) _ _ eq_refl eq_refl (ok_of_err orc s _ _ HI)).
  intros i mi Hs Hid Estep Eb. unfold rename in Estep. rewrite Hs in Estep.
  destruct (find_id s new_id) as [k|] eqn:En. { apply (ok_of_err orc s _ _ HI Estep). }
  pose proof (find_id_none s new_id i mi En Hs) as Hne. apply N.eqb_neq in Hne.
  rewrite (wid_upd_wput s i _ mi Hs) in Estep.
  eapply (ok_of_ms orc s _ _ OUnit [] i _ HI Estep eq_refl).
  - apply MS_set_held, (MS_wput_meta s i mi); rewrite ?m_set_id_eq, ?Hne; cbn [op_ids r_state r_start r_reserved r_len r_dmin r_dmax]; auto.
    + rewrite Hid. apply mem_in_head.
    + apply N.le_refl.
  - change (meta_body s (set_held ?a ?h)) with (meta_body s a).
    rewrite Eb, wput_body, (meta_ev_upd s i _ mi Hs) by now rewrite m_set_id_eq, Hne. unfold len_ev. now rewrite N.eqb_refl.
Qed.

(* the extent of a region that leaves its place joins the pending holes, none of which starts where
   a live region does *)
Lemma pend_moved s i m p z :
  Inv s -> slot s i = Some m -> In (p, z) (pend s) -> In (p, z) (ains (r_start m) (r_reserved m) (pend s)).
Proof.
  intros HI Hs Hin. apply in_ains_other; [exact Hin|]. intros ->.
  apply (in_aget _ _ _ (inv_sorted_pend s HI)) in Hin.
  rewrite (inv_region_start_not_pend s i m HI Hs) in Hin. discriminate.
Qed.

Lemma MS_removed s i m ids :
  Inv s -> slot s i = Some m -> (forall v, rf s i = Some v -> mem_in (sr_id v) ids = true) ->
  MS s (removed s i m) ids [] i (Some None).
Proof.
  intros HI Hs Hid.
  assert (Hrf : forall j, rf (removed s i m) j = if j =? i then None else rf s j) by (intros j; now apply rf_set_at).
  refine {| ms_len := _; ms_frame := _; ms_pend := _; ms_old := _; ms_id := _; ms_datas := _; ms_nd := _; ms_new := _ |}.
  - apply N.le_refl.
  - intros j Hne. rewrite slot_removed, Hrf. now destruct (N.eqb_spec j i).
  - intros p z. apply (pend_moved s i m p z HI Hs).
  - intros mi a Hs0 Hst Ha. rewrite Hs in Hs0. injection Hs0 as <-. right. exists (r_start m), (r_reserved m).
    split; [apply in_ains_same|exact Ha].
  - exact Hid.
  - intros off len f [].
  - intros mi' Hs0. rewrite slot_removed, N.eqb_refl in Hs0. discriminate.
  - rewrite Hrf, N.eqb_refl. split; [reflexivity|]. intros E. apply (in_nil (a := (r_start m, r_reserved m))). rewrite <- E. apply in_ains_same.
Qed.

Lemma ok_remove orc s id : Inv s -> step_ok orc s (Remove id).
Proof.
  intros HI.
  apply (with_region_at orc s (Remove id) id (fun i => let* s1 := remove_idx s i in AOk (s1, OUnit)) _ _ eq_refl eq_refl
           (ok_of_err orc s _ _ HI)).
  intros i mi Hs Hid Estep Eb.
  destruct (remove_idx s i) as [s'|s1 e|] eqn:Er; cbn [abind] in Estep.
  - rewrite (remove_idx_ok s i mi s' (inv_s2r_ok s HI) Hs Er) in Estep.
    apply (ok_of_ms orc s _ _ OUnit [] i (Some None) HI Estep eq_refl).
    + apply (MS_removed s i mi [id] HI Hs). intros v Hv. destruct (rf_some_slot s i v HI Hv) as (m0 & Hs0 & _ & <-).
      rewrite Hs in Hs0. injection Hs0 as <-. unfold srec, sr_id. rewrite Hid. apply mem_in_head.
    + rewrite Eb. unfold meta_body, len_ev. now rewrite N.eqb_refl.
  - rewrite (remove_idx_err s i s1 e (inv_s2r_ok s HI) Er) in Estep. apply (ok_of_err orc s _ e HI Estep).
  - apply (ok_of_panic orc s _ HI Estep).
Qed.

Lemma rf_pad (l : list (option slotrec)) k j :
  match get (l ++ repeat None k) j with Some (Some v) => Some v | _ => None end
  = match get l j with Some (Some v) => Some v | _ => @None slotrec end.
Proof.
  destruct (N.lt_ge_cases j (len l)) as [H|H]; [now rewrite get_app_l|].
  rewrite get_app_r, (get_none l) by exact H. destruct (get (repeat None k) _) as [[v|]|] eqn:G; try reflexivity.
  apply get_in, repeat_spec in G. discriminate.
Qed.

(* the new region's metadata is not in the regions file yet (newrec = None); the file is only
   padded with zeros up to the slot *)
Lemma MS_create s s' mn ids :
  Inv s -> let i := first_free (slots s) 0 in
  slots s' = set_at (slots s) (N.to_nat i) (Some mn) None ->
  rfile s' = (if len (rfile s) <? i + 1 then rfile s ++ repeat None (N.to_nat (i + 1 - len (rfile s))) else rfile s) ->
  pend s' = pend s -> file_len s <= file_len s' -> r_len mn = 0 ->
  MS s s' ids [] i None.
Proof.
  intros HI i Esl Erf Ep Hfl Hl0.
  assert (Hsl : forall j, slot s' j = if j =? i then Some mn else slot s j) by (intros j; now apply slot_set_at).
  assert (Hrf : forall j, rf s' j = rf s j).
  { intros j. unfold rf. rewrite Erf. destruct (_ <? _); [apply rf_pad|reflexivity]. }
  pose proof (rf_mirror s i HI) as R. rewrite slot_first_free in R.
  refine {| ms_len := _; ms_frame := _; ms_pend := _; ms_old := _; ms_id := _; ms_datas := _; ms_nd := _; ms_new := _ |}.
  - exact Hfl.
  - intros j Hne. split; [|apply Hrf]. rewrite Hsl. now destruct (N.eqb_spec j i).
  - intros p z. now rewrite Ep.
  - intros mi a Hs0. now rewrite slot_first_free in Hs0.
  - intros v Hv. congruence.
  - intros off len f [].
  - intros mi' Hs0 _. rewrite Hsl, N.eqb_refl in Hs0. injection Hs0 as <-. now left.
  - split; [apply Hrf|]. intros mi Hs0. now rewrite slot_first_free in Hs0.
Qed.

Lemma setlen_ev_held s h n : setlen_ev (set_held s h) n = setlen_ev s n.
Proof. unfold setlen_ev, set_min_len. cbn [file_len set_held]. destruct (_ <=? _); reflexivity. Qed.

(* where `place` puts the extent and whether it grows the file, as the events tell it *)
Lemma place_events s p sp ns :
  place s p = AOk (sp, ns) ->
  match find_hole s p with Some hs => ([], hs) | None => (setlen_ev s (layout_len s + p), layout_len s) end
  = (len_ev s sp, ns).
Proof.
  unfold place. destruct (find_hole s p) as [hs|]; [|now intros [= <- <-]].
  destruct (remove_or_compress_hole s hs p) as [s1| |] eqn:Er; try discriminate.
  destruct (roc_shape _ _ _ _ (or_introl Er)) as (H & Q & ->). intros [= <- <-]. unfold len_ev. cbn [file_len set_holes]. now rewrite N.eqb_refl.
Qed.

(* by create_eq and carve_at, not through AllocOutcome.create_cases: the CSetLen event needs the new file
   length (place_events), of which create_cases keeps the bound file_len s <= fl only *)
Lemma create_new s id hold :
  Inv s -> find_id s id = None ->
  exists s', create s id hold = AOk (s', OUnit) /\ MS s s' [id] [] (first_free (slots s) 0) None
    /\ len_ev s s' = match find_hole s PAGE_SIZE with None => setlen_ev s (layout_len s + PAGE_SIZE) | Some _ => [] end.
Proof.
  intros HI Ef. rewrite create_eq. cbv zeta.
  assert (Eh : exists h, (if hold then set_held s (id :: held s) else s) = set_held s h)
    by (destruct hold; [eexists; reflexivity|exists (held s); now destruct s]).
  destruct Eh as [h ->]. change (find_id (set_held s h) id) with (find_id s id). rewrite Ef.
  destruct (carve_at (set_held s h) PAGE_SIZE (proj1 (inv_set_held s h HI)) PAGE_pos PAGE_mod_PAGE)
    as (H & Q & fl & start & L' & Ep & Hc & Hfl & _).
  pose proof (cv_fresh Hc) as Hnone. clear Hc. rewrite Ep. cbn [abind].
  apply place_events, (f_equal fst) in Ep. unfold relaid in *.
  unfold create_tail, layout_insert_region. cbn [s2r put_slot set_slots set_rfile]. rewrite Hnone.
  eexists. split; [reflexivity|]. split; [now eapply (MS_create s _ _ [id] HI)|].
  change (find_hole (set_held s h) PAGE_SIZE) with (find_hole s PAGE_SIZE) in Ep.
  destruct (find_hole s PAGE_SIZE); symmetry; [exact Ep|]. rewrite <- (setlen_ev_held s h). exact Ep.
Qed.

Lemma ok_create orc s id hold : Inv s -> step_ok orc s (Create id hold).
Proof.
  intros HI. destruct (find_id s id) as [i0|] eqn:Ef.
  - apply (ok_of_same orc s (Create id hold) _ OUnit HI (create_found s id hold i0 Ef) eq_refl); try (destruct hold; reflexivity).
    cbn [body_events]. now rewrite Ef.
  - destruct (create_new s id hold HI Ef) as (s' & E & HM & El).
    apply (ok_of_ms orc s (Create id hold) s' OUnit [] _ None HI E eq_refl HM).
    cbn [body_events]. rewrite Ef, <- El. unfold meta_body. cbn [map app]. now rewrite app_nil_r.
Qed.
