(* Rawdb/CompactFacts.v — C12, sequential part: flush and compact keep every slot up to state and dirty
   bounds (`flush_placements`, `compact_placements`); the ranges compact hands to fallocate(PUNCH_HOLE)
   miss the data bytes of every live region (`punch_disjoint`), which therefore survive
   (`compact_mem_live`).  Also here: `sreg_eq` and `spec_eq` are equivalences. *)
From Anydb Require Import Common.Base Rawdb.AMap Rawdb.Alloc Rawdb.AllocSpec Rawdb.AllocInv
  Rawdb.AMapFacts Rawdb.CoverFacts Rawdb.InvLayout Rawdb.InvFacts Rawdb.InvFlush.

Lemma remove_hole_shape s k : exists H Q, fst (remove_hole s k) = set_holes s H Q.
Proof.
  unfold remove_hole. destruct (aget k (holes s)); cbn [fst].
  - eexists. eexists. reflexivity.
  - exists (holes s), (h2s s). symmetry. apply set_holes_same.
Qed.

Lemma promote_slots s : slots (promote s) = slots s.
Proof. rewrite promote_eq. reflexivity. Qed.
Lemma promote_s2r s : s2r (promote s) = s2r s.
Proof. rewrite promote_eq. reflexivity. Qed.
Lemma promote_resv s : resv (promote s) = resv s.
Proof. rewrite promote_eq. reflexivity. Qed.
Lemma promote_pend s : pend (promote s) = [].
Proof. rewrite promote_eq. reflexivity. Qed.
Lemma promote_rfile s : rfile (promote s) = rfile s.
Proof. rewrite promote_eq. reflexivity. Qed.
Lemma promote_file_len s : file_len (promote s) = file_len s.
Proof. rewrite promote_eq. reflexivity. Qed.
Lemma promote_mem s : mem (promote s) = mem s.
Proof. rewrite promote_eq. reflexivity. Qed.
Lemma promote_held s : held (promote s) = held s.
Proof. rewrite promote_eq. reflexivity. Qed.
Lemma promote_slot s i : slot (promote s) i = slot s i.
Proof. unfold slot. rewrite promote_slots. reflexivity. Qed.

Definition meta_eq (m m' : rmeta) : Prop :=
  r_start m' = r_start m /\ r_len m' = r_len m /\ r_reserved m' = r_reserved m /\ r_id m' = r_id m.

Lemma meta_eq_refl m : meta_eq m m.
Proof. repeat split. Qed.
Lemma meta_eq_trans a b c : meta_eq a b -> meta_eq b c -> meta_eq a c.
Proof. unfold meta_eq. intuition congruence. Qed.

Lemma meta_kept_eq g m : meta_kept g -> meta_eq m (g m).
Proof.
  intros Hg. exact (conj (meta_kept_start Hg m) (conj (meta_kept_len Hg m) (conj (meta_kept_reserved Hg m) (meta_kept_id Hg m)))).
Qed.

Lemma meta_eq_clear m : meta_eq m (m_clear_dirty m).
Proof. unfold m_clear_dirty. destruct (m_is_dirty m); repeat split. Qed.
Lemma meta_eq_state m v : meta_eq m (m_set_state m v).
Proof. repeat split. Qed.

Lemma flush_eq s :
  fst (flush s) = mkSt (slots (fst (flush s))) (s2r s) (holes (fst (flush s))) (h2s (fst (flush s))) (resv s) []
                       (rfile s) (file_len s) (mem s) (held s).
Proof. destruct (flush_shape s) as (g & n & _ & ->). cbn [fst]. rewrite promote_eq. reflexivity. Qed.

Definition slot_kept (o o' : option rmeta) : Prop :=
  match o, o' with
  | Some m, Some m' => meta_eq m m'
  | None, None => True
  | _, _ => False
  end.

Lemma flush_slot s i : slot_kept (slot s i) (slot (fst (flush s)) i).
Proof.
  destruct (flush_shape s) as (g & n & Hg & ->). cbn [fst]. rewrite promote_slot, slot_map_lift.
  destruct (slot s i) as [m|]; [|exact I]. now apply meta_kept_eq.
Qed.

Definition zero_ranges (l : list (N * N)) (m : N -> N) : N -> N :=
  fold_left (fun m r => mem_zero m (fst r) (snd r)) l m.

Lemma compact_fst s :
  fst (compact s) =
  set_mem (fst (flush s)) (zero_ranges (punch_ranges (fst (flush s))) (mem (fst (flush s)))).
Proof. unfold compact. destruct (flush s) as [s1 n]. reflexivity. Qed.
Lemma compact_snd s : snd (compact s) = snd (flush s).
Proof. unfold compact. destruct (flush s) as [s1 n]. reflexivity. Qed.

Lemma compact_slot_flush s i : slot (fst (compact s)) i = slot (fst (flush s)) i.
Proof. rewrite compact_fst. reflexivity. Qed.
Lemma compact_slots s : slots (fst (compact s)) = slots (fst (flush s)).
Proof. rewrite compact_fst. reflexivity. Qed.
Lemma compact_slot s i : slot_kept (slot s i) (slot (fst (compact s)) i).
Proof. rewrite compact_slot_flush. apply flush_slot. Qed.
Lemma compact_s2r s : s2r (fst (compact s)) = s2r s.
Proof. rewrite compact_fst, flush_eq. reflexivity. Qed.
Lemma compact_holes s : holes (fst (compact s)) = holes (fst (flush s)).
Proof. rewrite compact_fst. reflexivity. Qed.
Lemma compact_h2s s : h2s (fst (compact s)) = h2s (fst (flush s)).
Proof. rewrite compact_fst. reflexivity. Qed.
Lemma compact_resv s : resv (fst (compact s)) = resv s.
Proof. rewrite compact_fst, flush_eq. reflexivity. Qed.
Lemma compact_pend s : pend (fst (compact s)) = [].
Proof. rewrite compact_fst, flush_eq. reflexivity. Qed.
Lemma compact_rfile s : rfile (fst (compact s)) = rfile s.
Proof. rewrite compact_fst, flush_eq. reflexivity. Qed.
Lemma compact_file_len s : file_len (fst (compact s)) = file_len s.
Proof. rewrite compact_fst, flush_eq. reflexivity. Qed.
Lemma compact_held s : held (fst (compact s)) = held s.
Proof. rewrite compact_fst, flush_eq. reflexivity. Qed.

(* C12, placement clause: compaction never moves, resizes, renames, creates or drops a region and
   never changes the file length *)
Theorem compact_placements : forall s i,
  match slot s i, slot (fst (compact s)) i with
  | Some m, Some m' => r_start m' = r_start m /\ r_len m' = r_len m /\ r_reserved m' = r_reserved m /\ r_id m' = r_id m
  | None, None => True
  | _, _ => False
  end /\ file_len (fst (compact s)) = file_len s.
Proof. intros s i. split; [apply (compact_slot s i)|apply compact_file_len]. Qed.

Theorem flush_placements : forall s i,
  match slot s i, slot (fst (flush s)) i with
  | Some m, Some m' => r_start m' = r_start m /\ r_len m' = r_len m /\ r_reserved m' = r_reserved m /\ r_id m' = r_id m
  | None, None => True
  | _, _ => False
  end /\ file_len (fst (flush s)) = file_len s.
Proof. intros s i. split; [apply (flush_slot s i)|now rewrite flush_eq]. Qed.

Lemma sreg_eq_refl a : sreg_eq a a.
Proof. repeat split. Qed.
Lemma sreg_eq_sym a b : sreg_eq a b -> sreg_eq b a.
Proof.
  intros (Hl & Hd & Hp). split; [|split]; [congruence| |congruence].
  intros k Hk. symmetry. apply Hd. rewrite Hl. exact Hk.
Qed.
Lemma sreg_eq_trans a b c : sreg_eq a b -> sreg_eq b c -> sreg_eq a c.
Proof.
  intros (Hl & Hd & Hp) (Hl' & Hd' & Hp'). split; [|split]; [congruence| |congruence].
  intros k Hk. rewrite Hd by exact Hk. apply Hd'. rewrite <- Hl. exact Hk.
Qed.

Lemma spec_eq_refl a : spec_eq a a.
Proof.
  split; [|reflexivity]. intros id. destruct (sget id (sp_regions a)); [apply sreg_eq_refl|exact I].
Qed.
Lemma spec_eq_sym a b : spec_eq a b -> spec_eq b a.
Proof.
  intros [Hr Hh]. split; [|intros id; symmetry; apply Hh].
  intros id. specialize (Hr id).
  destruct (sget id (sp_regions a)), (sget id (sp_regions b)); try exact Hr. now apply sreg_eq_sym.
Qed.
Lemma spec_eq_trans a b c : spec_eq a b -> spec_eq b c -> spec_eq a c.
Proof.
  intros [Hr Hh] [Hr' Hh']. split; [|intros id; rewrite Hh; apply Hh'].
  intros id. specialize (Hr id). specialize (Hr' id).
  destruct (sget id (sp_regions a)), (sget id (sp_regions b)), (sget id (sp_regions c));
    try exact I; try contradiction. eapply sreg_eq_trans; eauto.
Qed.

Lemma region_start_inj s i j mi mj :
  Inv s -> slot s i = Some mi -> slot s j = Some mj -> r_start mi = r_start mj -> i = j.
Proof.
  intros H Hi Hj E. pose proof (inv_s2r_ok s H i mi Hi) as H1. pose proof (inv_s2r_ok s H j mj Hj) as H2.
  congruence.
Qed.

Lemma in_punch_ranges s r :
  In r (punch_ranges s) <->
  (exists i m, slot s i = Some m /\ ceil_page (r_len m) < r_reserved m /\
               r = (r_start m + ceil_page (r_len m), r_reserved m - ceil_page (r_len m)))
  \/ In r (holes s).
Proof.
  unfold punch_ranges. rewrite in_app_iff, in_flat_map. split.
  - intros [(o & Ho & Hr)|Hh]; [left|right; assumption].
    destruct o as [m|]; [|destruct Hr]. cbv zeta in Hr.
    destruct (ceil_page (r_len m) <? r_reserved m) eqn:E; [|destruct Hr].
    destruct Hr as [<-|[]]. destruct (in_slots_slot s m Ho) as [i Hi].
    exists i, m. split; [assumption|]. split; [lia|reflexivity].
  - intros [(i & m & Hs & Hlt & ->)|Hh]; [left|right; assumption].
    exists (Some m). split; [eapply slot_in_slots; eauto|]. cbv zeta.
    destruct (ceil_page (r_len m) <? r_reserved m) eqn:E; [left; reflexivity|lia].
Qed.

(* C12, disjointness clause: every range handed to PUNCH_HOLE lies outside the data bytes of every live
   region; it is a tracked hole or the unused page-aligned tail of one region's own reservation *)
Theorem punch_disjoint : forall s, Inv s -> forall r, In r (punch_ranges s) ->
  (forall i m, slot s i = Some m -> fst r + snd r <= r_start m \/ r_start m + r_len m <= fst r)
  /\ ((exists a z, aget a (holes s) = Some z /\ r = (a, z))
      \/ (exists i m, slot s i = Some m /\ r_start m + ceil_page (r_len m) <= fst r /\
                      fst r + snd r <= r_start m + r_reserved m)).
Proof.
  intros s HI r Hr. apply in_punch_ranges in Hr.
  destruct Hr as [(j & m0 & Hj & Hlt & ->)|Hh].
  - cbn [fst snd]. split.
    + intros i m Hi. pose proof (ceil_page_ge (r_len m0)) as Hge.
      destruct (N.eq_dec i j) as [->|Hne].
      * rewrite Hj in Hi. inversion Hi; subst m. right. lia.
      * pose proof (inv_region_len s i m HI Hi) as Hlen.
        destruct (region_region_disjoint s i j m m0 HI Hne Hi Hj); [right|left]; lia.
    + right. exists j, m0. split; [assumption|]. lia.
  - destruct r as [a z]. cbn [fst snd].
    assert (Hg : aget a (holes s) = Some z).
    { apply in_aget; [exact (inv_sorted_holes s HI)|assumption]. }
    split.
    + intros i m Hi. pose proof (inv_region_len s i m HI Hi) as Hlen.
      destruct (region_hole_disjoint s i m a z HI Hi Hg); [right|left]; lia.
    + left. eauto.
Qed.

Theorem punch_disjoint_flush s :
  Inv s -> forall r, In r (punch_ranges (fst (flush s))) ->
  (forall i m, slot (fst (flush s)) i = Some m -> fst r + snd r <= r_start m \/ r_start m + r_len m <= fst r) /\
  ((exists a z, aget a (holes (fst (flush s))) = Some z /\ r = (a, z)) \/
   (exists i m, slot (fst (flush s)) i = Some m /\ r_start m + ceil_page (r_len m) <= fst r /\
                fst r + snd r <= r_start m + r_reserved m)).
Proof. intros HI. apply punch_disjoint. apply (inv_flush s HI). Qed.

Lemma zero_ranges_outside l : forall m a,
  (forall r, In r l -> a < fst r \/ fst r + snd r <= a) -> zero_ranges l m a = m a.
Proof.
  unfold zero_ranges. induction l as [|r l IH]; intros m a H; cbn [fold_left]; [reflexivity|].
  rewrite IH by (intros r' Hr'; apply H; right; exact Hr').
  unfold mem_zero. destruct (H r (or_introl eq_refl)); destruct ((fst r <=? a) && (a <? fst r + snd r)) eqn:E;
    try reflexivity; lia.
Qed.

Lemma zero_ranges_cases l : forall m a, zero_ranges l m a = m a \/ zero_ranges l m a = 0.
Proof.
  unfold zero_ranges. induction l as [|r l IH]; intros m a; cbn [fold_left]; [left; reflexivity|].
  destruct (IH (mem_zero m (fst r) (snd r)) a) as [-> | ->]; [|right; reflexivity].
  unfold mem_zero. destruct ((fst r <=? a) && (a <? fst r + snd r)); [right|left]; reflexivity.
Qed.

Lemma zero_ranges_inside l : forall m a r,
  In r l -> fst r <= a < fst r + snd r -> zero_ranges l m a = 0.
Proof.
  unfold zero_ranges. induction l as [|r0 l IH]; intros m a r HI Ha; [destruct HI|]. cbn [fold_left].
  destruct HI as [->|HI]; [|eapply IH; eauto].
  destruct (zero_ranges_cases l (mem_zero m (fst r) (snd r)) a) as [E|E]; unfold zero_ranges in E; rewrite E;
    [|reflexivity].
  unfold mem_zero. destruct ((fst r <=? a) && (a <? fst r + snd r)) eqn:E2; [reflexivity|lia].
Qed.

Lemma compact_mem s a :
  mem (fst (compact s)) a = zero_ranges (punch_ranges (fst (flush s))) (mem s) a.
Proof. rewrite compact_fst, flush_eq. reflexivity. Qed.

Theorem compact_mem_outside : forall s a,
  (forall r, In r (punch_ranges (fst (flush s))) -> a < fst r \/ fst r + snd r <= a) ->
  mem (fst (compact s)) a = mem s a.
Proof. intros s a H. rewrite compact_mem. now apply zero_ranges_outside. Qed.

Theorem compact_mem_cases : forall s a, mem (fst (compact s)) a = mem s a \/ mem (fst (compact s)) a = 0.
Proof. intros s a. rewrite compact_mem. apply zero_ranges_cases. Qed.

Theorem compact_mem_live : forall s, Inv s ->
  forall i m k, slot (fst (flush s)) i = Some m -> k < r_len m ->
  mem (fst (compact s)) (r_start m + k) = mem s (r_start m + k).
Proof.
  intros s HI i m k Hi Hk. apply compact_mem_outside. intros r Hr.
  destruct (punch_disjoint_flush s HI r Hr) as [Hd _]. destruct (Hd i m Hi); lia.
Qed.
