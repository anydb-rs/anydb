(* Rawdb/AllocOutcome.v — each call described once, by an equation with its literal result state.  A
   placement leaves a `carved` state (`carve_at`); a rewritten slot is `wput`; a growing write is one of
   the two results of `grow_cases`, which refinement reads as `grown`: a panic or a state `written_at`. *)
From Anydb Require Import Common.Base Common.ListFacts Gen.Consts Rawdb.AMap Rawdb.Alloc Rawdb.AllocSpec Rawdb.AllocInv
  Rawdb.AMapFacts Rawdb.CoverFacts Rawdb.InvLayout Rawdb.HolesFacts.
From Anydb Require Export Rawdb.AllocShape Rawdb.InvFacts.

Lemma set_min_len_grows s n : exists fl, set_min_len s n = set_file_len s fl /\ file_len s <= fl /\ n <= fl.
Proof.
  unfold set_min_len. pose proof (ceil_page_ge n). destruct (N.leb_spec (ceil_page n) (file_len s)).
  - exists (file_len s). split; [destruct s; reflexivity|lia].
  - eexists. split; [reflexivity|].
    pose proof (ceil_page_ge (N.max (N.max (ceil_page n) (file_len s * GROW_FACTOR)) GROW_FLOOR)).
    rewrite GROW_FACTOR_2 in *. lia.
Qed.

Lemma set_min_len_shape s n : exists fl, set_min_len s n = set_file_len s fl /\ file_len s <= fl.
Proof. destruct (set_min_len_grows s n) as (fl & E & H & _). eauto. Qed.

Lemma set_min_len_ge s n : n <= file_len (set_min_len s n).
Proof. destruct (set_min_len_grows s n) as (fl & -> & _ & H). exact H. Qed.

Lemma db_write_eq s off f n s1 : db_write s off f n = Some s1 -> s1 = set_mem s (mem_write (mem s) off f n).
Proof. unfold db_write. destruct (_ <=? _); [|discriminate]. now intros [= <-]. Qed.

Lemma db_write_some s off f n s3 : db_write s off f n = Some s3 -> exists mm, s3 = set_mem s mm.
Proof. intros H. apply db_write_eq in H. eauto. Qed.

(* For n = 0 Database::copy returns at once: `copied` is then m itself, not a function pointwise
   equal to it, which makes db_copy_shape an equation between states *)
Definition copied (m : N -> N) (src dst n : N) : N -> N := if n =? 0 then m else mem_copy m src dst n.

Lemma copied_spec m src dst n a : copied m src dst n a = mem_copy m src dst n a.
Proof.
  unfold copied, mem_copy. destruct (N.eqb_spec n 0) as [->|]; [|reflexivity].
  destruct ((dst <=? a) && (a <? dst + 0)) eqn:E; [lia|reflexivity].
Qed.

Lemma db_copy_shape s src dst n :
  n = 0 \/ src + n <= dst \/ dst + n <= src ->
  db_copy s src dst n =
  if (n =? 0) || ((src + n <=? file_len s) && (dst + n <=? file_len s))
  then AOk (set_mem s (copied (mem s) src dst n)) else APanic.
Proof.
  intros Hd. unfold db_copy, copied. destruct (N.eqb_spec n 0) as [->|Hn]; [now rewrite set_mem_same|].
  destruct ((src + n <=? dst) || (dst + n <=? src)) eqn:E; [reflexivity|lia].
Qed.

Lemma db_copy_ok s src dst n s2 : db_copy s src dst n = AOk s2 -> exists mm, s2 = set_mem s mm.
Proof.
  unfold db_copy. destruct (n =? 0). { intros [= <-]. exists (mem s). now rewrite set_mem_same. }
  destruct (negb _); [discriminate|]. destruct (_ && _); [|discriminate].
  intros [= <-]. eauto.
Qed.

Lemma roc_succeeds s a by_ z :
  aget a (holes s) = Some z -> by_ <= z -> exists H Q, remove_or_compress_hole s a by_ = AOk (set_holes s H Q).
Proof.
  intros Hg Hle. unfold remove_or_compress_hole, remove_hole. rewrite Hg.
  destruct (N.eqb_spec z by_); [eauto|]. destruct (N.ltb_spec by_ z); [|lia].
  unfold insert_hole. eexists. eexists. reflexivity.
Qed.

Lemma roc_no_err s a by_ z s' e :
  aget a (holes s) = Some z -> by_ <= z -> remove_or_compress_hole s a by_ <> AErr s' e.
Proof. intros Hg Hle. destruct (roc_succeeds s a by_ z Hg Hle) as (H & Q & ->). discriminate. Qed.

Lemma find_hole_spec s k a :
  h2s_agrees s -> asorted (h2s s) -> find_hole s k = Some a ->
  exists z, aget a (holes s) = Some z /\ k <= z.
Proof.
  intros [Hh _] Hs. unfold find_hole.
  destruct (afirst_geq k (h2s s)) as [[z [|a' l]]|] eqn:E; try discriminate.
  intros [= ->]. apply afirst_geq_some in E. destruct E as [HI Hle].
  exists z. split; [|exact Hle]. apply Hh. exists (a :: l).
  split; [apply in_aget; assumption|left; reflexivity].
Qed.

Lemma find_hole_complete s need : Inv s -> has_hole_for s need -> find_hole s need <> None.
Proof.
  intros HI (a & z & Hz & Hle). destruct (inv_h2s s HI) as [Hag Hne].
  destruct (proj1 (Hag a z) Hz) as (l & Hl & HIl).
  unfold find_hole. destruct (afirst_geq need (h2s s)) as [[k l']|] eqn:E.
  - apply afirst_geq_some in E. destruct E as [HIk _].
    assert (Hk : aget k (h2s s) = Some l').
    { apply in_aget; [exact (inv_sorted_h2s s HI)|exact HIk]. }
    destruct (Hne k l' Hk) as [Hnil _]. destruct l'; [congruence|discriminate].
  - pose proof (afirst_geq_none need (h2s s) z l E (aget_in _ _ _ Hl)). lia.
Qed.

Lemma double_until_ge fuel r t r' : double_until fuel r t = Ok r' -> t <= r' /\ r <= r'.
Proof.
  revert r. induction fuel as [|fuel IH]; intros r; cbn [double_until];
    destruct (N.leb_spec t r); try (intros [= <-]; lia); try discriminate.
  destruct (two64 <=? r * RESERVE_FACTOR); [discriminate|]. intros Hd. apply IH in Hd.
  rewrite RESERVE_FACTOR_2 in Hd. lia.
Qed.

Lemma double_until_err fuel : forall r t e, double_until fuel r t = Err e -> e = RegionSizeOverflow.
Proof.
  induction fuel as [|fuel IH]; intros r t e; cbn [double_until]; destruct (t <=? r); try discriminate.
  - now intros [= <-].
  - destruct (two64 <=? r * RESERVE_FACTOR); [now intros [= <-]|]. apply IH.
Qed.

Lemma double_until_not_panic fuel : forall r t, double_until fuel r t <> Panic.
Proof.
  induction fuel as [|fuel IH]; intros r t; cbn [double_until]; destruct (t <=? r); try discriminate.
  destruct (two64 <=? r * RESERVE_FACTOR); [discriminate|]. apply IH.
Qed.

Lemma double_until_first fuel : forall r t r',
  double_until fuel r t = Ok r' -> (r' = r /\ t <= r) \/ (r < t /\ r' < 2 * t).
Proof.
  induction fuel as [|fuel IH]; intros r t r'; cbn [double_until];
    destruct (t <=? r) eqn:E; try (intros [= <-]; left; lia); try discriminate.
  destruct (two64 <=? r * RESERVE_FACTOR); [discriminate|]. intros H. apply IH in H.
  rewrite RESERVE_FACTOR_2 in H. right. lia.
Qed.

Lemma double_until_mod fuel : forall r t r',
  r mod PAGE_SIZE = 0 -> double_until fuel r t = Ok r' -> r' mod PAGE_SIZE = 0.
Proof.
  induction fuel as [|fuel IH]; intros r t r' Hr; cbn [double_until];
    destruct (t <=? r) eqn:E; try (intros [= <-]; exact Hr); try discriminate.
  destruct (two64 <=? r * RESERVE_FACTOR); [discriminate|]. apply IH.
  rewrite RESERVE_FACTOR_2. replace (r * 2) with (r + r) by lia. apply mod0_add; [exact PAGE_nz|exact Hr|exact Hr].
Qed.

(* the fuel is not a behaviour of its own: 64 doublings of a non-zero reserve reach every target below 2^63,
   so `double_until 64` gives up only where the `checked_mul(2)` of region.rs overflows *)
Lemma double_until_ok fuel : forall r t,
  0 < r -> t * 2 < two64 -> t <= r * 2 ^ N.of_nat fuel -> exists r', double_until fuel r t = Ok r'.
Proof.
  induction fuel as [|fuel IH]; intros r t Hr Ht Hle; cbn [double_until].
  - destruct (t <=? r) eqn:E; [eauto|]. change (2 ^ N.of_nat 0) with 1 in Hle. lia.
  - destruct (t <=? r) eqn:E; [eauto|]. rewrite RESERVE_FACTOR_2.
    destruct (two64 <=? r * 2) eqn:E2; [lia|]. apply IH; [lia|exact Ht|].
    rewrite Nat2N.inj_succ, N.pow_succ_r' in Hle. lia.
Qed.


Lemma layout_remove_region_ok s i m :
  s2r_ok s -> slot s i = Some m ->
  layout_remove_region s i m =
  AOk (set_pend (set_s2r s (arem (r_start m) (s2r s))) (ains (r_start m) (r_reserved m) (pend s))).
Proof.
  intros Hok Hs. unfold layout_remove_region. rewrite (Hok i m Hs), N.eqb_refl. reflexivity.
Qed.

(* sb is s with p bytes at `start` taken out of the holes or added past the end of the layout: with
   (start, p) the extents of sb cover exactly [0, L') *)
Record carved (s sb : st) (start p L' : N) : Prop := mk_carved {
  cv_slots : slots sb = slots s;
  cv_s2r : s2r sb = s2r s;
  cv_pend : pend sb = pend s;
  cv_rfile : rfile sb = rfile s;
  cv_resv : resv sb = [];
  cv_holes : holes_ok (holes sb) (h2s sb);
  cv_cover : forall x, (owners (region_exts (slots s)) x + owners (holes sb) x + owners (pend s) x + cov (start, p) x)%nat
                       = if x <? L' then 1%nat else 0%nat;
  cv_file : L' <= file_len sb;
  cv_fresh : aget start (s2r s) = None;
  cv_aligned : aligned (start, p)
}.
Arguments cv_slots {s sb start p L'}.
Arguments cv_s2r {s sb start p L'}.
Arguments cv_pend {s sb start p L'}.
Arguments cv_rfile {s sb start p L'}.
Arguments cv_resv {s sb start p L'}.
Arguments cv_holes {s sb start p L'}.
Arguments cv_cover {s sb start p L'}.
Arguments cv_file {s sb start p L'}.
Arguments cv_fresh {s sb start p L'}.
Arguments cv_aligned {s sb start p L'}.

Lemma carve_hole s a p z :
  Inv s -> aget a (holes s) = Some z -> 0 < p -> p mod PAGE_SIZE = 0 -> p <= z ->
  exists H Q, remove_or_compress_hole s a p = AOk (set_holes s H Q)
              /\ carved s (set_holes s H Q) a p (layout_len s).
Proof.
  intros HI Hz Hpos Hmod Hle.
  destruct (roc_holes_ok s a p z (inv_holes_ok s HI) Hz Hmod Hle) as (H & Q & Er & Hok & Hown).
  exists H, Q. split; [exact Er|]. constructor; st_simpl; try reflexivity.
  - exact (inv_no_resv s HI).
  - exact Hok.
  - intros x. rewrite <- (inv_cover3 s x HI), <- (Hown x). lia.
  - exact (inv_file s HI).
  - exact (no_region_at_hole s a z HI Hz).
  - destruct (inv_hole_aligned s a z HI Hz) as (Ha & _). exact (conj Ha (conj Hmod Hpos)).
Qed.

Lemma carve_end s p fl :
  Inv s -> 0 < p -> p mod PAGE_SIZE = 0 -> layout_len s + p <= fl ->
  carved s (set_file_len s fl) (layout_len s) p (layout_len s + p).
Proof.
  intros HI Hpos Hmod Hfl. constructor; st_simpl; try reflexivity.
  - exact (inv_no_resv s HI).
  - exact (inv_holes_ok s HI).
  - intros x. rewrite below_app, <- (inv_cover3 s x HI). lia.
  - exact Hfl.
  - exact (no_region_at_end s HI).
  - exact (conj (layout_len_aligned s HI) (conj Hmod Hpos)).
Qed.

(* all that a placement changes: hole maps and file length *)
Definition relaid (s : st) (H : amap N) (Q : amap (list N)) (fl : N) : st :=
  mkSt (slots s) (s2r s) H Q (resv s) (pend s) (rfile s) fl (mem s) (held s).

Lemma carved_zone s sb a p L' :
  Inv s -> carved s sb a p L' ->
  forall j mj, slot s j = Some mj -> r_start mj + r_reserved mj <= a \/ a + p <= r_start mj.
Proof.
  intros HI Hc j mj Hj. destruct (inv_region_aligned s j mj HI Hj) as (_ & _ & Hpos).
  apply (disjoint_of_count ((a, p) :: region_exts (slots s)) (rext mj) (a, p)); [| |exact Hpos|apply (cv_aligned Hc)].
  - intros x. rewrite owners_cons. pose proof (cv_cover Hc x). destruct (x <? L'); lia.
  - intros x. rewrite owners_cons. pose proof (owners_in _ _ x (slot_in_region_exts s j mj Hj)). lia.
Qed.

Lemma carved_end s sb a p L' : carved s sb a p L' -> a + p <= file_len sb.
Proof.
  intros Hc. destruct (cv_aligned Hc) as (_ & _ & Hp). cbn [snd] in Hp. pose proof (cv_file Hc).
  pose proof (cv_cover Hc (a + p - 1)) as Hcov. rewrite (cov_true (a, p)) in Hcov by (unfold covers; cbn [fst snd]; lia).
  destruct (N.ltb_spec (a + p - 1) L'); lia.
Qed.

Lemma carve_at s p :
  Inv s -> 0 < p -> p mod PAGE_SIZE = 0 ->
  exists H Q fl ns L',
    place s p = AOk (relaid s H Q fl, ns) /\ carved s (relaid s H Q fl) ns p L' /\ file_len s <= fl
    /\ (L' = layout_len s \/ find_hole s p = None).
Proof.
  intros HI Hpos Hmod. unfold place. destruct (find_hole s p) as [a|] eqn:Ef.
  - destruct (find_hole_spec s p a (inv_h2s s HI) (inv_sorted_h2s s HI) Ef) as (z & Hz & Hle).
    destruct (carve_hole s a p z HI Hz Hpos Hmod Hle) as (H & Q & -> & Hc). cbn [abind].
    exists H, Q, (file_len s), a, (layout_len s).
    split; [reflexivity|]. split; [exact Hc|]. split; [lia|left; reflexivity].
  - destruct (set_min_len_grows s (layout_len s + p)) as (fl & -> & Hfl & Hge).
    exists (holes s), (h2s s), fl, (layout_len s), (layout_len s + p).
    split; [reflexivity|]. split; [now apply (carve_end s p fl)|]. split; [exact Hfl|right; reflexivity].
Qed.

(* the state after the move, before the slot is rewritten *)
Definition moved (s1 : st) (i : N) (m : rmeta) (ns : N) (mm : N -> N) : st :=
  mkSt (slots s1) (ains ns i (arem (r_start m) (s2r s1))) (holes s1) (h2s s1) (arem ns (resv s1))
       (ains (r_start m) (r_reserved m) (pend s1)) (rfile s1) (file_len s1) mm (held s1).

Lemma reloc_tail_eq s1 i m f n wo nl nr cl ns :
  s2r_ok s1 -> slot s1 i = Some m ->
  cl = 0 \/ r_start m + cl <= ns \/ ns + cl <= r_start m ->
  reloc_tail s1 i m f n wo nl nr cl ns =
  if ((cl =? 0) || ((r_start m + cl <=? file_len s1) && (ns + cl <=? file_len s1)))
     && (ns + wo + n <=? file_len s1)
     && match aget ns (arem (r_start m) (s2r s1)) with None => true | Some _ => false end
     && match aget ns (resv s1) with Some z => z =? nr | None => false end
     && ok_set_start ns && ok_set_reserved m nr && (nl <=? nr)
  then AOk (write_if_dirty (upd (moved s1 i m ns (mem_write (copied (mem s1) (r_start m) ns cl) (ns + wo) f n))
                                i (reloc_meta ns nr nl)) i, OUnit)
  else APanic.
Proof.
  intros Hok Hs Hd. unfold reloc_tail. rewrite (db_copy_shape s1 _ _ _ Hd).
  destruct ((cl =? 0) || _); [|reflexivity]. cbn [abind andb]. unfold db_write. cbn [file_len set_mem mem].
  destruct (ns + wo + n <=? file_len s1); [|reflexivity]. cbn [andb].
  rewrite layout_remove_region_ok by assumption. cbn [abind]. unfold layout_insert_region.
  cbn [s2r set_pend set_s2r set_mem].
  destruct (aget ns (arem (r_start m) (s2r s1))); [reflexivity|]. cbn [andb resv set_s2r set_pend set_mem].
  destruct (aget ns (resv s1)) as [z|]; [|reflexivity].
  destruct (z =? nr); [|reflexivity]. destruct (ok_set_start ns); [|reflexivity].
  destruct (ok_set_reserved m nr); [|reflexivity]. destruct (nl <=? nr); reflexivity.
Qed.

(* every path that rewrites a slot ends with write_if_dirty on it *)
Definition wput (s : st) (i : N) (x : rmeta) : st := write_if_dirty (put_slot s i (Some x)) i.

Lemma wput_nf s i x :
  wput s i x =
  put_slot (set_rfile s (if r_state x =? ST_WRITE then set_at (rfile s) (N.to_nat i) (Some (srec x)) None else rfile s))
           i (Some (fin x)).
Proof.
  unfold wput. rewrite (wid_nf _ i x) by (now rewrite slot_put_slot, N.eqb_refl).
  unfold put_slot, set_slots, set_rfile. st_simpl. now rewrite set_at_set_at.
Qed.

Lemma wid_upd_wput s i g m : slot s i = Some m -> write_if_dirty (upd s i g) i = wput s i (g m).
Proof. intros Hs. unfold wput. now rewrite (upd_some s i g m Hs). Qed.

Lemma slot_wput s i x j : slot (wput s i x) j = if j =? i then Some (fin x) else slot s j.
Proof. rewrite wput_nf, slot_put_slot. reflexivity. Qed.

Lemma mem_wput s i x : mem (wput s i x) = mem s.
Proof. now rewrite wput_nf. Qed.
Lemma held_wput s i x : held (wput s i x) = held s.
Proof. now rewrite wput_nf. Qed.

Lemma rfile_has_set_at s rf i x j :
  rfile s = set_at rf (N.to_nat i) x None ->
  rfile_has s j = if j =? i then match x with Some _ => true | None => false end
                  else match get rf j with Some (Some _) => true | _ => false end.
Proof.
  intros E. unfold rfile_has, get. rewrite E, nth_opt_set_at.
  destruct (N.eqb_spec j i) as [->|Hne].
  - rewrite Nat.eqb_refl. reflexivity.
  - destruct (Nat.eqb_spec (N.to_nat j) (N.to_nat i)); [lia|].
    destruct (nth_opt rf (N.to_nat j)) as [[r|]|]; try reflexivity.
    destruct (Nat.ltb (N.to_nat j) (N.to_nat i)); reflexivity.
Qed.

Lemma rfile_has_pad s rf k j : rfile s = rf ++ repeat None k ->
  rfile_has s j = match get rf j with Some (Some _) => true | _ => false end.
Proof. intros E. unfold rfile_has. rewrite E. destruct (get_pad rf k j) as [->|[-> ->]]; reflexivity. Qed.

Lemma rfile_has_wput s i x j :
  rfile_has (wput s i x) j = if j =? i then (r_state x =? ST_WRITE) || rfile_has s i else rfile_has s j.
Proof.
  rewrite wput_nf. destruct (r_state x =? ST_WRITE).
  - erewrite (rfile_has_set_at _ (rfile s) i (Some (srec x)) j); [|reflexivity]. destruct (j =? i); reflexivity.
  - destruct (N.eqb_spec j i) as [->|]; reflexivity.
Qed.

Lemma finish_write_put sA i y start wo f n nl :
  finish_write (put_slot sA i (Some y)) i start wo f n nl =
  if (start + wo + n <=? file_len sA) && (nl <=? r_reserved y)
  then AOk (wput (set_mem sA (mem_write (mem sA) (start + wo) f n)) i (m_set_len (m_mark_dirty y wo n) nl), OUnit)
  else APanic.
Proof.
  unfold finish_write, db_write. cbn [file_len put_slot set_slots mem].
  destruct (start + wo + n <=? file_len sA); [|reflexivity]. cbn [andb].
  set (sB := set_mem sA (mem_write (mem sA) (start + wo) f n)).
  change (set_mem _ _) with (put_slot sB i (Some y)).
  assert (Hy : slot (put_slot sB i (Some y)) i = Some y) by now rewrite slot_put_slot, N.eqb_refl.
  rewrite slot_upd, N.eqb_refl, Hy. cbn [option_map]. unfold ok_set_len. cbn [r_reserved m_mark_dirty].
  destruct (nl <=? r_reserved y); [|reflexivity].
  rewrite upd_upd, (wid_upd_wput _ i _ y Hy). unfold wput. now rewrite put_slot_put_slot.
Qed.

Lemma m_set_len_eq m v :
  m_set_len m v = mkR (r_start m) v (r_reserved m) (r_id m) (if r_len m =? v then r_state m else ST_WRITE) (r_dmin m) (r_dmax m).
Proof. unfold m_set_len. destruct (N.eqb_spec (r_len m) v) as [<-|]; [destruct m|]; reflexivity. Qed.
Lemma m_set_start_eq m v :
  m_set_start m v = mkR v (r_len m) (r_reserved m) (r_id m) (if r_start m =? v then r_state m else ST_WRITE) (r_dmin m) (r_dmax m).
Proof. unfold m_set_start. destruct (N.eqb_spec (r_start m) v) as [<-|]; [destruct m|]; reflexivity. Qed.
Lemma m_set_reserved_eq m v :
  m_set_reserved m v = mkR (r_start m) (r_len m) v (r_id m) (if r_reserved m =? v then r_state m else ST_WRITE) (r_dmin m) (r_dmax m).
Proof. unfold m_set_reserved. destruct (N.eqb_spec (r_reserved m) v) as [<-|]; [destruct m|]; reflexivity. Qed.
Lemma m_set_id_eq m v :
  m_set_id m v = mkR (r_start m) (r_len m) (r_reserved m) v (if r_id m =? v then r_state m else ST_WRITE) (r_dmin m) (r_dmax m).
Proof. unfold m_set_id. destruct (N.eqb_spec (r_id m) v) as [<-|]; [destruct m|]; reflexivity. Qed.

Definition written_meta (m x : rmeta) (zs nr nl : N) : Prop :=
  r_start x = zs /\ r_len x = nl /\ r_reserved x = nr /\ r_id x = r_id m /\ r_state x = ST_WRITE.

Lemma set_len_meta m v : r_len m <> v -> written_meta m (m_set_len m v) (r_start m) (r_reserved m) v.
Proof.
  intros Hne. rewrite m_set_len_eq. unfold written_meta. cbn [r_start r_len r_reserved r_id r_state].
  destruct (N.eqb_spec (r_len m) v); [contradiction|auto].
Qed.

Lemma in_place_meta_written m nr wo n nl : r_reserved m <> nr -> written_meta m (in_place_meta nr wo n nl m) (r_start m) nr nl.
Proof.
  intros Hne. unfold in_place_meta. rewrite m_set_len_eq, m_set_reserved_eq. unfold written_meta.
  cbn [m_mark_dirty r_start r_len r_reserved r_id r_state].
  destruct (N.eqb_spec (r_reserved m) nr); [contradiction|]. destruct (r_len m =? nl); auto.
Qed.

Lemma reloc_meta_written m ns nr nl : r_reserved m <> nr -> written_meta m (reloc_meta ns nr nl m) ns nr nl.
Proof.
  intros Hne. unfold reloc_meta. rewrite m_set_len_eq, m_set_reserved_eq, m_set_start_eq. unfold written_meta.
  cbn [m_mark_dirty r_start r_len r_reserved r_id r_state].
  destruct (N.eqb_spec (r_reserved m) nr); [contradiction|]. destruct (r_len m =? nl); auto.
Qed.

Definition in_place_res (sA : st) (i : N) (m : rmeta) (f : N -> N) (n wo nl nr : N) : ares (st * out) :=
  if (r_start m + wo + n <=? file_len sA) && ok_set_reserved m nr && (nl <=? nr)
  then AOk (wput (set_mem sA (mem_write (mem sA) (r_start m + wo) f n)) i (in_place_meta nr wo n nl m), OUnit)
  else APanic.

Definition moved_res (sb : st) (i : N) (m : rmeta) (f : N -> N) (n wo nl nr cl ns : N) : ares (st * out) :=
  if (ns + wo + n <=? file_len sb) && ok_set_reserved m nr && (nl <=? nr)
  then AOk (wput (moved (set_resv sb [(ns, nr)]) i m ns (mem_write (copied (mem sb) (r_start m) ns cl) (ns + wo) f n))
                 i (reloc_meta ns nr nl m), OUnit)
  else APanic.

Lemma in_place_eq sA i m f n wo nl nr :
  slot sA i = Some m ->
  (if negb (ok_set_reserved m nr) then APanic
   else finish_write (upd sA i (fun m => m_set_reserved m nr)) i (r_start m) wo f n nl) = in_place_res sA i m f n wo nl nr.
Proof.
  intros Hs. unfold in_place_res. rewrite (upd_some sA i _ m Hs), finish_write_put.
  replace (r_reserved (m_set_reserved m nr)) with nr by now rewrite m_set_reserved_eq.
  destruct (_ <=? file_len sA), (ok_set_reserved m nr); reflexivity.
Qed.

(* A growing write carves the missing bytes after the region's end (out of the hole that follows, or
   past the end of the layout when the region is last) and rewrites the slot in place; or it carves nr
   bytes by `place` and moves the region there.  Invariant, reuse clause, refinement and the error
   clauses are all read off this. *)
Definition grow_cases (s : st) (i : N) (m : rmeta) (f : N -> N) (n wo nl nr cl : N) (r : ares (st * out)) : Prop :=
  exists H Q fl L',
    file_len s <= fl /\
    ((carved s (relaid s H Q fl) (r_start m + r_reserved m) (nr - r_reserved m) L'
      /\ r = in_place_res (relaid s H Q fl) i m f n wo nl nr)
     \/ exists ns, carved s (relaid s H Q fl) ns nr L' /\ (L' = layout_len s \/ find_hole s nr = None)
                   /\ r = moved_res (relaid s H Q fl) i m f n wo nl nr cl ns).

Lemma reloc_tail_moved sb i m f n wo nl nr cl ns :
  s2r_ok sb -> slot sb i = Some m -> asorted (s2r sb) -> aget ns (s2r sb) = None -> ns mod PAGE_SIZE = 0 ->
  r_start m + cl <= ns \/ ns + cl <= r_start m -> r_start m + cl <= file_len sb -> ns + cl <= file_len sb ->
  reloc_tail (set_resv sb [(ns, nr)]) i m f n wo nl nr cl ns = moved_res sb i m f n wo nl nr cl ns.
Proof.
  intros Hok Hs Hso Hnone Hns Hd H1 H2. rewrite reloc_tail_eq; [|exact Hok|exact Hs|right; exact Hd].
  unfold moved_res. cbn [file_len s2r resv mem aget set_resv].
  rewrite (aget_arem _ _ _ Hso), Hnone, !N.eqb_refl. unfold ok_set_start. rewrite Hns, N.eqb_refl.
  replace ((cl =? 0) || ((r_start m + cl <=? file_len sb) && (ns + cl <=? file_len sb))) with true by (clear - H1 H2; lia).
  replace (if ns =? r_start m then @None N else None) with (@None N) by now destruct (ns =? r_start m).
  cbn [andb]. rewrite !andb_true_r. now erewrite wid_upd_wput by exact Hs.
Qed.

Lemma relocate_cases s i m f n wo nl nr cl :
  Inv s -> slot s i = Some m -> cl <= r_reserved m -> r_reserved m < nr -> nr mod PAGE_SIZE = 0 ->
  grow_cases s i m f n wo nl nr cl (relocate s i m f n wo nl nr cl).
Proof.
  intros HI Hs Hcl Hnr Hmod. rewrite (relocate_eq _ _ _ _ _ _ _ _ _ (inv_no_resv s HI)).
  assert (Hpos : 0 < nr) by (clear - Hnr; lia).
  destruct (carve_at s nr HI Hpos Hmod) as (H & Q & fl & ns & L' & Ep & Hc & Hfl & HL). clear Hmod.
  rewrite Ep. cbn [abind]. pose proof (carved_end _ _ _ _ _ Hc) as Hend. cbn [file_len relaid] in Hend.
  destruct (cv_aligned Hc) as (Hns & _). cbn [fst] in Hns.
  pose proof (carved_zone s _ ns nr L' HI Hc i m Hs) as Hzi.
  pose proof (region_end_le s i m HI Hs) as Hre. pose proof (inv_file s HI) as Hf.
  rewrite reloc_tail_moved;
    [|exact (inv_s2r_ok s HI)|exact Hs|exact (inv_sorted_s2r s HI)|exact (cv_fresh Hc)|exact Hns
     |clear - Hzi Hcl Hnr; lia|cbn [file_len relaid]; clear - Hre Hf Hfl Hcl; lia|cbn [file_len relaid]; clear - Hend Hcl Hnr; lia].
  exists H, Q, fl, L'. split; [exact Hfl|]. right. exists ns. split; [exact Hc|]. split; [exact HL|reflexivity].
Qed.

Lemma upd_set_file_len s fl i g : set_file_len (upd s i g) fl = upd (set_file_len s fl) i g.
Proof. unfold upd. change (slot (set_file_len s fl) i) with (slot s i). destruct (slot s i); reflexivity. Qed.

(* sA is a variable with an equation: the caller's `set_holes s H Q` or `set_file_len s fl` then meets
   `relaid` in a goal of a few symbols; compared inside the goal below, the two literal states cost seconds *)
Lemma in_place_cases s H Q fl L' i m f n wo nl nr cl sA :
  slot s i = Some m -> sA = relaid s H Q fl -> file_len s <= fl ->
  carved s sA (r_start m + r_reserved m) (nr - r_reserved m) L' ->
  grow_cases s i m f n wo nl nr cl
    (if negb (ok_set_reserved m nr) then APanic
     else finish_write (upd sA i (fun m => m_set_reserved m nr)) i (r_start m) wo f n nl).
Proof.
  intros Hs -> Hfl Hc. rewrite in_place_eq by exact Hs.
  exists H, Q, fl, L'. split; [exact Hfl|]. left. split; [exact Hc|reflexivity].
Qed.

Lemma grow_path_cases s i m f n wo nl nr cl :
  Inv s -> slot s i = Some m -> cl <= r_reserved m -> r_reserved m < nr -> nr mod PAGE_SIZE = 0 ->
  grow_cases s i m f n wo nl nr cl (grow_path s i m f n wo nl nr cl).
Proof.
  intros HI Hs Hcl Hnr Hmod. unfold grow_path.
  pose proof (relocate_cases s i m f n wo nl nr cl HI Hs Hcl Hnr Hmod) as Hrel.
  pose proof (region_reserved_page s i m HI Hs) as R2.
  assert (Hadd : (nr - r_reserved m) mod PAGE_SIZE = 0) by (apply mod0_sub; [exact PAGE_nz|exact Hmod|exact R2]).
  assert (Hpos : 0 < nr - r_reserved m) by (clear - Hnr; lia). clear Hmod R2.
  destruct (is_last_anything s i) eqn:Elast.
  { destruct (set_min_len_grows (upd s i (fun m => m_set_reserved m nr)) (r_start m + nr)) as (fl & -> & Hfl & Hge).
    rewrite (upd_some s i _ m Hs) in Hfl. cbn [file_len put_slot set_slots] in Hfl. rewrite upd_set_file_len.
    pose proof (last_anything_end s i m HI Hs Elast) as HL.
    apply (in_place_cases s (holes s) (h2s s) fl (layout_len s + (nr - r_reserved m)) i m f n wo nl nr cl _ Hs eq_refl Hfl).
    rewrite HL. apply (carve_end s _ fl HI Hpos Hadd). clear - HL Hge Hnr. lia. }
  destruct (aget (r_start m + r_reserved m) (holes s)) as [gap|] eqn:Eg; [|exact Hrel].
  destruct (N.leb_spec (nr - r_reserved m) gap) as [Hgap|]; [|exact Hrel].
  destruct (carve_hole s _ (nr - r_reserved m) gap HI Eg Hpos Hadd Hgap) as (H & Q & -> & Hc). cbn [abind].
  exact (in_place_cases s H Q (file_len s) (layout_len s) i m f n wo nl nr cl _ Hs eq_refl (N.le_refl _) Hc).
Qed.

(* What refinement and the error layer need of a write that rewrites its slot: slot i receives x over a
   state sB and the region then lies in the zone [zs, zs + nr); `base` is the memory before the write is
   laid over it.  A growing write panics or leaves such a state (`grown`); so does a write that fits and
   changes the length (`fits_written_at`). *)
Set Implicit Arguments.
Record written_at (s : st) (i : N) (m : rmeta) (f : N -> N) (n wo nl nr cl : N)
                (sB : st) (zs : N) (x : rmeta) (base : N -> N) : Prop := {
  wa_slots : slots sB = slots s;
  wa_rfile : rfile sB = rfile s;
  wa_held : held sB = held s;
  wa_file : zs + nr <= file_len sB;
  wa_mem : mem sB = mem_write base (zs + wo) f n;
  wa_outside : forall a, a < zs \/ zs + nr <= a -> base a = mem s a;
  wa_copied : forall k, k < cl -> base (zs + k) = mem s (r_start m + k);
  wa_meta : written_meta m x zs nr nl;
  wa_zone : forall j mj, j <> i -> slot s j = Some mj -> r_start mj + r_reserved mj <= zs \/ zs + nr <= r_start mj
}.
Unset Implicit Arguments.

Definition grown (s : st) (i : N) (m : rmeta) (f : N -> N) (n wo nl nr cl : N) (r : ares (st * out)) : Prop :=
  exists sB zs x base,
    r = (if (zs + wo + n <=? file_len sB) && ok_set_reserved m nr && (nl <=? nr)
         then AOk (wput sB i x, OUnit) else APanic)
    /\ written_at s i m f n wo nl nr cl sB zs x base.

Lemma grow_cases_grown s i m f n wo nl nr cl r :
  Inv s -> slot s i = Some m -> cl <= r_reserved m -> r_reserved m < nr ->
  grow_cases s i m f n wo nl nr cl r -> grown s i m f n wo nl nr cl r.
Proof.
  intros HI Hs Hcl Hnr (H & Q & fl & L' & Hfl & [[Hc ->]|(ns & Hc & _ & ->)]);
    pose proof (carved_end _ _ _ _ _ Hc) as Hend; cbn [file_len relaid] in Hend;
    pose proof (carved_zone s _ _ _ _ HI Hc) as Hzone.
  - exists (set_mem (relaid s H Q fl) (mem_write (mem s) (r_start m + wo) f n)), (r_start m), (in_place_meta nr wo n nl m), (mem s).
    split; [reflexivity|]. constructor; try reflexivity.
    + cbn [file_len set_mem relaid]. lia.
    + apply in_place_meta_written. lia.
    + intros j mj Hne Hj.
      pose proof (region_reserved_pos s j mj HI Hj) as Hp.
      destruct (region_region_disjoint s j i mj m HI Hne Hj Hs); [left; assumption|]. destruct (Hzone j mj Hj); lia.
  - exists (moved (set_resv (relaid s H Q fl) [(ns, nr)]) i m ns (mem_write (copied (mem s) (r_start m) ns cl) (ns + wo) f n)),
           ns, (reloc_meta ns nr nl m), (copied (mem s) (r_start m) ns cl).
    split; [reflexivity|]. pose proof (Hzone i m Hs) as Hzi. constructor; try reflexivity.
    + exact Hend.
    + intros a Ha. rewrite copied_spec. unfold mem_copy. destruct ((ns <=? a) && (a <? ns + cl)) eqn:E; [lia|reflexivity].
    + intros k Hk. rewrite copied_spec. unfold mem_copy.
      destruct ((ns <=? ns + k) && (ns + k <? ns + cl)) eqn:E; [f_equal|]; lia.
    + apply reloc_meta_written. lia.
    + intros j mj _. apply Hzone.
Qed.

Lemma grow_shape s i m f n wo nl nr cl :
  Inv s -> slot s i = Some m -> cl <= r_reserved m -> r_reserved m < nr -> nr mod PAGE_SIZE = 0 ->
  grown s i m f n wo nl nr cl (grow_path s i m f n wo nl nr cl).
Proof. intros HI Hs Hcl Hnr Hmod. now apply grow_cases_grown, grow_path_cases. Qed.

Lemma fits_written_at s i m f n wo nl cl :
  Inv s -> slot s i = Some m -> r_len m <> nl ->
  written_at s i m f n wo nl (r_reserved m) cl (set_mem s (mem_write (mem s) (r_start m + wo) f n)) (r_start m)
             (m_set_len (m_mark_dirty m wo n) nl) (mem s).
Proof.
  intros HI Hs Hne. constructor; try reflexivity.
  - exact (region_end_file s i m HI Hs).
  - apply (set_len_meta (m_mark_dirty m wo n)). exact Hne.
  - intros j mj Hj0 Hj. exact (region_region_disjoint s j i mj m HI Hj0 Hj Hs).
Qed.

Lemma first_free_spec l : forall i0,
  i0 <= first_free l i0 /\
  match nth_opt l (N.to_nat (first_free l i0 - i0)) with Some (Some _) => False | _ => True end.
Proof.
  induction l as [|[m|] t IH]; intros i0; cbn [first_free].
  - split; [lia|]. destruct (N.to_nat (i0 - i0)); exact I.
  - destruct (IH (i0 + 1)) as [H1 H2]. split; [lia|].
    replace (N.to_nat (first_free t (i0 + 1) - i0)) with (S (N.to_nat (first_free t (i0 + 1) - (i0 + 1)))) by lia.
    exact H2.
  - split; [lia|]. replace (N.to_nat (i0 - i0)) with O by lia. exact I.
Qed.

Lemma slot_first_free s : slot s (first_free (slots s) 0) = None.
Proof.
  destruct (first_free_spec (slots s) 0) as [_ H]. rewrite N.sub_0_r in H. unfold slot, get.
  destruct (nth_opt (slots s) (N.to_nat (first_free (slots s) 0))) as [[m|]|]; [destruct H|reflexivity|reflexivity].
Qed.

Lemma create_found s id hold i :
  find_id s id = Some i -> create s id hold = AOk (if hold then set_held s (id :: held s) else s, OUnit).
Proof. intros E. rewrite create_eq. destruct hold; cbv zeta; change (find_id (set_held s _) id) with (find_id s id); now rewrite E. Qed.

Definition created (sb : st) (i start id : N) (hold : bool) : st :=
  mkSt (set_at (slots sb) (N.to_nat i) (Some (mkR start NEW_REGION_LEN NEW_REGION_RESERVED id ST_WRITE u64_max 0)) None)
       (ains start i (s2r sb)) (holes sb) (h2s sb) (resv sb) (pend sb)
       (if len (rfile sb) <? i + 1 then rfile sb ++ repeat None (N.to_nat (i + 1 - len (rfile sb))) else rfile sb)
       (file_len sb) (mem sb) (if hold then id :: held sb else held sb).

Lemma slot_created sb i start id hold j :
  slot (created sb i start id hold) j =
  if j =? i then Some (mkR start NEW_REGION_LEN NEW_REGION_RESERVED id ST_WRITE u64_max 0) else slot sb j.
Proof. now apply slot_set_at. Qed.

Lemma held_created sb i start id hold : held (created sb i start id hold) = if hold then id :: held sb else held sb.
Proof. reflexivity. Qed.
Lemma rfile_has_created sb i start id hold j : rfile_has (created sb i start id hold) j = rfile_has sb j.
Proof.
  unfold created. destruct (len (rfile sb) <? i + 1); [|reflexivity].
  erewrite rfile_has_pad; [|reflexivity]. reflexivity.
Qed.

Lemma create_cases s id hold :
  Inv s -> find_id s id = None ->
  exists H Q fl start L',
    carved s (relaid s H Q fl) start PAGE_SIZE L' /\ (L' = layout_len s \/ find_hole s PAGE_SIZE = None)
    /\ file_len s <= fl
    /\ create s id hold = AOk (created (relaid s H Q fl) (first_free (slots s) 0) start id hold, OUnit).
Proof.
  intros HI Hf. rewrite create_eq. cbv zeta.
  assert (HI0 : Inv (if hold then set_held s (id :: held s) else s)) by (destruct hold; [apply inv_set_held|]; exact HI).
  replace (find_id (if hold then set_held s (id :: held s) else s) id) with (find_id s id) by now destruct hold.
  rewrite Hf. destruct (carve_at _ PAGE_SIZE HI0 PAGE_pos PAGE_mod_PAGE) as (H & Q & fl & start & L' & Ep & Hc & Hfl & HL).
  exists H, Q, fl, start, L'. rewrite Ep. cbn [abind].
  unfold create_tail, layout_insert_region. cbn [s2r put_slot set_slots set_rfile relaid]. rewrite (cv_fresh Hc).
  (* a handle taken first is in `held` only, which `carved` does not read *)
  destruct hold; (split; [destruct Hc; constructor; assumption|]; split; [exact HL|]; split; [exact Hfl|]; reflexivity).
Qed.

Definition removed (s : st) (i : N) (m : rmeta) : st :=
  mkSt (set_at (slots s) (N.to_nat i) None None) (arem (r_start m) (s2r s)) (holes s) (h2s s) (resv s)
       (ains (r_start m) (r_reserved m) (pend s)) (set_at (rfile s) (N.to_nat i) None None) (file_len s) (mem s) (held s).

Lemma remove_idx_eq s i m :
  s2r_ok s -> slot s i = Some m -> is_held s (r_id m) = false -> remove_idx s i = AOk (removed s i m).
Proof. intros Hok Hs Hh. unfold remove_idx. rewrite Hs, Hh, layout_remove_region_ok by assumption. reflexivity. Qed.

Lemma remove_idx_ok s i m s' : s2r_ok s -> slot s i = Some m -> remove_idx s i = AOk s' -> s' = removed s i m.
Proof.
  intros Hok Hs. destruct (is_held s (r_id m)) eqn:Eh; [unfold remove_idx; now rewrite Hs, Eh|].
  rewrite (remove_idx_eq s i m Hok Hs Eh). now intros [= <-].
Qed.

Lemma slot_removed s i m j : slot (removed s i m) j = if j =? i then None else slot s j.
Proof. now apply slot_set_at. Qed.

Lemma rfile_has_removed s i m j : rfile_has (removed s i m) j = if j =? i then false else rfile_has s j.
Proof. erewrite (rfile_has_set_at _ (rfile s) i None j); [|reflexivity]. destruct (j =? i); reflexivity. Qed.

Lemma s2r_ok_removed s i m : s2r_ok s -> slot s i = Some m -> s2r_ok (removed s i m).
Proof.
  intros Hok Hs j mj. rewrite slot_removed. destruct (N.eqb_spec j i) as [|Hne]; [discriminate|]. intros Hj.
  cbn [s2r removed]. rewrite aget_arem_other; [now apply Hok|].
  intros Heq. pose proof (Hok i m Hs) as H1. rewrite Heq, (Hok j mj Hj) in H1. now injection H1.
Qed.

Definition kept (keep : list N) (o : option rmeta) : option rmeta :=
  match o with
  | Some m => if existsb (fun x => x =? r_id m) keep then Some m else None
  | None => None
  end.

Definition table_from (s : st) (i : N) (fuel : list (option rmeta)) : Prop :=
  forall j, i <= j -> slot s j = match get fuel (j - i) with Some (Some m) => Some m | _ => None end.

Lemma table_from_tail s s' i o t :
  table_from s i (o :: t) -> (forall j, i < j -> slot s' j = slot s j) -> table_from s' (i + 1) t.
Proof.
  intros Ht Hs j Hj. rewrite Hs, Ht, get_cons by lia. destruct (N.eqb_spec (j - i) 0); [lia|].
  now replace (j - i - 1) with (j - (i + 1)) by lia.
Qed.

(* P is `s2r_ok` itself (AllocErr.retain_from_ok) or Inv with the layout length (InvRemove.retain_post) *)
Lemma retain_from_shape (P : st -> Prop) :
  (forall s, P s -> s2r_ok s) -> (forall s i m, P s -> slot s i = Some m -> P (removed s i m)) ->
  forall fuel s0 keep i,
  P s0 -> table_from s0 i fuel ->
  (forall j m, slot s0 j = Some m -> existsb (fun y => y =? r_id m) keep = false -> is_held s0 (r_id m) = false) ->
  exists s1, retain_from fuel s0 keep i = AOk s1 /\ P s1 /\ held s1 = held s0 /\ mem s1 = mem s0 /\
    (forall j, slot s1 j = if j <? i then slot s0 j else kept keep (slot s0 j)) /\
    (forall j, slot s1 j <> None -> rfile_has s1 j = rfile_has s0 j).
Proof.
  intros Hok Hcl. induction fuel as [|o t IH]; intros s0 keep i HP Ht Hheld.
  { exists s0. repeat split; auto. intros j. destruct (N.ltb_spec j i); [reflexivity|]. now rewrite Ht. }
  assert (Hs : slot s0 i = match o with Some m => Some m | None => None end).
  { rewrite Ht, N.sub_diag by lia. now destruct o. }
  assert (Hskip : kept keep (slot s0 i) = slot s0 i ->
            exists s1, retain_from t s0 keep (i + 1) = AOk s1 /\ P s1 /\ held s1 = held s0 /\ mem s1 = mem s0 /\
              (forall j, slot s1 j = if j <? i then slot s0 j else kept keep (slot s0 j)) /\
              (forall j, slot s1 j <> None -> rfile_has s1 j = rfile_has s0 j)).
  { intros Hk. destruct (IH s0 keep (i + 1) HP) as (s1 & Hr & HP1 & Hh & Hm & Hs1 & Hrf); auto.
    { apply (table_from_tail s0 s0 i o t Ht). reflexivity. }
    exists s1. repeat (split; [assumption|]). split; [|exact Hrf]. intros j. rewrite Hs1.
    destruct (N.ltb_spec j i), (N.ltb_spec j (i + 1)); try reflexivity; try lia.
    replace j with i by lia. now rewrite Hk. }
  destruct o as [m|]; cbn [retain_from]; [|apply Hskip; now rewrite Hs].
  destruct (existsb (fun x => x =? r_id m) keep) eqn:Ek.
  { apply Hskip. rewrite Hs. cbn [kept]. now rewrite Ek. }
  rewrite (remove_idx_eq s0 i m (Hok s0 HP) Hs (Hheld i m Hs Ek)). cbn [abind].
  destruct (IH (removed s0 i m) keep (i + 1)) as (s1 & Hr & HP1 & Hh & Hm & Hs1 & Hrf).
  { now apply Hcl. }
  { apply (table_from_tail s0 _ i (Some m) t Ht). intros j Hj. rewrite slot_removed. destruct (N.eqb_spec j i); [lia|reflexivity]. }
  { intros j mj. rewrite slot_removed. destruct (j =? i); [discriminate|]. apply Hheld. }
  exists s1. split; [exact Hr|]. split; [exact HP1|]. split; [exact Hh|]. split; [exact Hm|]. split.
  - intros j. rewrite Hs1, slot_removed.
    destruct (N.ltb_spec j i), (N.ltb_spec j (i + 1)), (N.eqb_spec j i); try reflexivity; try lia.
    subst j. rewrite Hs. cbn [kept]. now rewrite Ek.
  - intros j Hj. rewrite (Hrf j Hj), rfile_has_removed.
    destruct (N.eqb_spec j i) as [->|]; [|reflexivity].
    exfalso. apply Hj. rewrite Hs1, slot_removed, N.eqb_refl. now destruct (i <? i + 1).
Qed.

Lemma with_region_cases s id k :
  (exists i m, find_id s id = Some i /\ slot s i = Some m /\ r_id m = id /\ with_region s id k = k i)
  \/ (find_id s id = None /\ with_region s id k = AErr s RegionNotFound).
Proof.
  unfold with_region. destruct (find_id s id) as [i|] eqn:E; [left|right; auto].
  destruct (find_id_some s id i E) as (m & Hs & Hid). eauto 6.
Qed.

Lemma with_region_ind s id k (Q : ares (st * out) -> Prop) :
  Q (AErr s RegionNotFound) -> (forall i m, find_id s id = Some i -> slot s i = Some m -> Q (k i)) ->
  Q (with_region s id k).
Proof. intros H0 Hk. destruct (with_region_cases s id k) as [(i & m & Ei & Hs & _ & ->)|(_ & ->)]; eauto. Qed.
