(* Rawdb/AllocNoPanic.v — under Inv no step panics for requests within `op_fits_strong` (op_fits, and a
   write keeps the region below half the 1 TiB reserve limit): `never_panics` needs the second half only;
   the first is what the refinement asks (AllocRefineAll.c01_refines_step_fits).  `op_fits` alone is
   refuted (`never_panics_refuted`): a region whose reserve already is MAX_RESERVED_SIZE doubles to 2 TiB
   on a one-byte append and trips the assert of region_metadata.rs:92. *)
From Anydb Require Import Common.Base Gen.Consts Rawdb.Alloc Rawdb.AllocInv
  Rawdb.AllocFacts Rawdb.StepOutcome.
From Anydb Require Rawdb.InvBool.

Definition op_fits_strong (s : st) (o : op) : Prop :=
  op_fits s o /\
  match o with
  | Write id _ n | WriteAt id _ n _ | TruncWrite id _ n _ =>
      forall i m, find_id s id = Some i -> slot s i = Some m -> r_len m + n <= MAX_RESERVED_SIZE / 2
  | _ => True
  end.

Definition big_region : rmeta := mkR 0 MAX_RESERVED_SIZE MAX_RESERVED_SIZE 1 ST_CLEAN u64_max 0.
Definition big_state : st :=
  mkSt [Some big_region] [(0, 0)] [] [] [] []
       [Some (0, MAX_RESERVED_SIZE, MAX_RESERVED_SIZE, 1)] MAX_RESERVED_SIZE (fun _ => 0) [].

Lemma slot_big_0 : slot big_state 0 = Some big_region.
Proof. reflexivity. Qed.

(* a concrete state: the executable checker of InvBool.v decides its invariant *)
Lemma inv_big_state : Inv big_state /\ layout_len big_state = MAX_RESERVED_SIZE.
Proof. split; [apply InvBool.inv_b_sound|]; vm_compute; reflexivity. Qed.

Lemma never_panics_refuted : exists s o, Inv s /\ op_fits s o /\ step s o = APanic.
Proof.
  exists big_state, (Write 1 (fun _ => 0) 1). split; [exact (proj1 inv_big_state)|]. split.
  - cbn [op_fits]. discriminate.
  - vm_compute. reflexivity.
Qed.

Theorem never_panics s o : Inv s -> op_fits_strong s o -> step s o <> APanic.
Proof. intros HI [_ Hf]. exact (step_no_panic s o HI Hf). Qed.

(* the hypotheses of never_panics are satisfiable *)
Example no_panic_example : Inv (init 0) /\ op_fits_strong (init 0) (Create 1 false) /\ Create 1 false <> Reopen.
Proof. split; [apply inv_init|]. split; [split; exact I|discriminate]. Qed.
