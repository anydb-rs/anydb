(* Rawdb/InvLayout.v — the `layout_len` of the code, a maximum of four `last` ends, is the length of
   the covered prefix whenever the extents cover a prefix exactly (`layout_len_of_cover`); on that
   InvOps.mk_inv_ok builds Inv from a cover stated with a length L of the caller's choice. *)
From Anydb Require Import Common.Base Gen.Consts Rawdb.AMap Rawdb.Alloc Rawdb.AllocInv
  Rawdb.AMapFacts Rawdb.CoverFacts.

Ltac st_simpl :=
  cbn [slots s2r holes h2s resv pend rfile file_len mem held
       set_slots set_s2r set_holes set_resv set_pend set_rfile set_file_len set_mem set_held
       put_slot insert_hole].

Section LenOfCover.
Variable s : st.
Variable L : N.
Hypothesis Hsr : asorted (s2r s).
Hypothesis Hsh : asorted (holes s).
Hypothesis Hsp : asorted (pend s).
Hypothesis Hsv : asorted (resv s).
Hypothesis Hmap : forall a i, aget a (s2r s) = Some i <-> exists m, slot s i = Some m /\ r_start m = a.
Hypothesis Hpos : forall e, In e (extents s) -> 0 < snd e.
Hypothesis Hcov : forall a, owners (extents s) a = if a <? L then 1%nat else 0%nat.

Lemma loc_end_le e : In e (extents s) -> fst e + snd e <= L.
Proof using Hpos Hcov.
  intros HI. exact (cover_end_le _ L e Hcov HI (Hpos e HI)).
Qed.

Lemma loc_no_bigger_start e e' :
  In e (extents s) -> In e' (extents s) -> covers e (L - 1) = true -> 0 < L -> fst e < fst e' -> False.
Proof.
  intros HI HI' Hc HL Hlt. pose proof (loc_end_le e' HI') as He'. pose proof (Hpos e' HI') as Hp'.
  assert (Hne : e <> e') by (intros ->; lia).
  pose proof (owners_in2 e e' _ (fst e') HI HI' Hne) as Ho. rewrite Hcov in Ho.
  unfold covers in Hc.
  rewrite (cov_true e), (cov_true e') in Ho by (unfold covers; lia).
  destruct (fst e' <? L); lia.
Qed.

Lemma loc_amap (m : amap N) :
  asorted m -> (forall e, In e m -> In e (extents s)) ->
  last_end m <= L /\
  (forall e, In e m -> covers e (L - 1) = true -> 0 < L -> last_end m = L).
Proof.
  intros Hs Hsub. unfold last_end. destruct (alast m) as [[b w]|] eqn:El.
  - pose proof (alast_in _ _ El) as HIb. pose proof (loc_end_le _ (Hsub _ HIb)) as Hb. cbn [fst snd] in Hb.
    split; [exact Hb|]. intros [a z] HI Hc HL.
    pose proof (alast_max m b w a z Hs El HI) as Hle.
    destruct (N.eq_dec a b) as [->|Hne].
    + pose proof (in_aget _ _ _ Hs HI) as H1. pose proof (in_aget _ _ _ Hs HIb) as H2.
      rewrite H1 in H2. inversion H2; subst. unfold covers in Hc. cbn [fst snd] in Hc. lia.
    + exfalso. apply (loc_no_bigger_start (a, z) (b, w)); auto. cbn [fst]. lia.
  - apply alast_none in El. subst. split; [lia|]. intros e [].
Qed.

Lemma loc_region :
  last_region_end s <= L /\
  (forall i m, slot s i = Some m -> covers (rext m) (L - 1) = true -> 0 < L -> last_region_end s = L).
Proof.
  unfold last_region_end. destruct (alast (s2r s)) as [[b j]|] eqn:El.
  - pose proof (alast_in _ _ El) as HIb. pose proof (in_aget _ _ _ Hsr HIb) as Hgb.
    destruct (proj1 (Hmap b j) Hgb) as (mj & Hj & Hbj). rewrite Hj.
    assert (HIj : In (rext mj) (extents s)) by (apply in_extents; left; eapply slot_in_region_exts; eauto).
    pose proof (loc_end_le _ HIj) as Hb. unfold rext in Hb. cbn [fst snd] in Hb.
    split; [lia|]. intros i m Hi Hc HL.
    assert (Hgi : aget (r_start m) (s2r s) = Some i) by (apply Hmap; eauto).
    pose proof (alast_max _ b j _ _ Hsr El (aget_in _ _ _ Hgi)) as Hle.
    destruct (N.eq_dec (r_start m) b) as [Heq|Hne].
    + rewrite Heq, Hgb in Hgi. inversion Hgi; subst. rewrite Hi in Hj. inversion Hj; subst.
      unfold covers, rext in Hc. cbn [fst snd] in Hc. lia.
    + exfalso. apply (loc_no_bigger_start (rext m) (rext mj)); auto.
      * apply in_extents; left; eapply slot_in_region_exts; eauto.
      * unfold rext. cbn [fst]. lia.
  - apply alast_none in El. split; [lia|]. intros i m Hi _ _.
    assert (Hgi : aget (r_start m) (s2r s) = Some i) by (apply Hmap; eauto). rewrite El in Hgi. discriminate.
Qed.

Lemma layout_len_of_cover : layout_len s = L.
Proof.
  unfold layout_len.
  destruct (loc_amap (resv s) Hsv) as [Hv1 Hv2]. { intros e HI. apply in_extents. auto. }
  destruct (loc_amap (holes s) Hsh) as [Hh1 Hh2]. { intros e HI. apply in_extents. auto. }
  destruct (loc_amap (pend s) Hsp) as [Hp1 Hp2]. { intros e HI. apply in_extents. auto. }
  destruct loc_region as [Hr1 Hr2].
  destruct (N.eq_dec L 0) as [H0|H0]; [lia|].
  assert (HL : 0 < L) by lia.
  pose proof (Hcov (L - 1)) as Hc. destruct (L - 1 <? L) eqn:E; [|lia].
  (* some extent e owns the last address L - 1; no extent starts above e (loc_no_bigger_start), so e is the
     `alast` entry of its map and ends at L; every other last entry ends at or before L *)
  destruct (owners_pos_ex (extents s) (L - 1)) as (e & HI & Hce); [lia|].
  apply in_extents in HI. destruct HI as [HI|[HI|[HI|HI]]].
  - apply in_region_exts_slot in HI. destruct HI as (i & m & Hi & ->).
    specialize (Hr2 i m Hi Hce HL). lia.
  - specialize (Hh2 e HI Hce HL). lia.
  - specialize (Hp2 e HI Hce HL). lia.
  - specialize (Hv2 e HI Hce HL). lia.
Qed.
End LenOfCover.

Lemma put_slot_put_slot s i x y : put_slot (put_slot s i x) i y = put_slot s i y.
Proof. unfold put_slot, set_slots. st_simpl. now rewrite set_at_set_at. Qed.

Lemma upd_some s i f m : slot s i = Some m -> upd s i f = put_slot s i (Some (f m)).
Proof. unfold upd. now intros ->. Qed.

Lemma upd_upd s i f g : upd (upd s i f) i g = upd s i (fun m => g (f m)).
Proof.
  destruct (slot s i) as [m|] eqn:E.
  - rewrite (upd_some s i f m E). unfold upd at 1. rewrite slot_put_slot, N.eqb_refl.
    rewrite put_slot_put_slot. now rewrite (upd_some s i _ m E).
  - unfold upd. rewrite E. rewrite E. reflexivity.
Qed.

Definition srec (m : rmeta) : slotrec := (r_start m, r_len m, r_reserved m, r_id m).
(* the record as write_if_dirty leaves it in the table (`wid_nf`) *)
Definition fin (m : rmeta) : rmeta := if r_state m =? ST_WRITE then m_set_state m ST_FLUSH else m.

Lemma fin_state m : (r_state (fin m) =? ST_WRITE) = false.
Proof. unfold fin. destruct (r_state m =? ST_WRITE) eqn:E; [reflexivity|exact E]. Qed.
Lemma fin_srec m : srec (fin m) = srec m.
Proof. unfold fin. destruct (r_state m =? ST_WRITE); reflexivity. Qed.
Lemma fin_rext m : rext (fin m) = rext m.
Proof. unfold fin. destruct (r_state m =? ST_WRITE); reflexivity. Qed.
Lemma fin_len m : r_len (fin m) = r_len m.
Proof. unfold fin. destruct (r_state m =? ST_WRITE); reflexivity. Qed.
Lemma fin_id m : r_id (fin m) = r_id m.
Proof. unfold fin. destruct (r_state m =? ST_WRITE); reflexivity. Qed.
Lemma fin_reserved m : r_reserved (fin m) = r_reserved m.
Proof. unfold fin. destruct (r_state m =? ST_WRITE); reflexivity. Qed.
Lemma fin_start m : r_start (fin m) = r_start m.
Proof. unfold fin. destruct (r_state m =? ST_WRITE); reflexivity. Qed.

(* rfile_mirrors s is `forall i, mirrors1 (slot s i) (get (rfile s) i)` *)
Definition mirrors1 (o : option rmeta) (r : option (option slotrec)) : Prop :=
  match o with
  | Some m => if r_state m =? ST_WRITE then r = Some None /\ r_len m = 0 /\ r_dmax m = 0
              else r = Some (Some (srec m))
  | None => r = Some None \/ r = None
  end.

(* second case: the regions file grew with zero slots over an index that was past its end *)
Lemma mirrors1_grow o r r' : mirrors1 o r -> r' = r \/ (r = None /\ r' = Some None) -> mirrors1 o r'.
Proof.
  intros H [->|[-> ->]]; [exact H|]. destruct o as [m|]; [|left; reflexivity].
  cbn [mirrors1] in H. destruct (r_state m =? ST_WRITE); [destruct H as [H _]|]; discriminate.
Qed.

Lemma set_rfile_same s : set_rfile s (rfile s) = s.
Proof. destruct s; reflexivity. Qed.
Lemma set_holes_same s : set_holes s (holes s) (h2s s) = s.
Proof. destruct s; reflexivity. Qed.
Lemma set_mem_same s : set_mem s (mem s) = s.
Proof. destruct s; reflexivity. Qed.

Definition frame (s : st) := (slots s, s2r s, resv s, pend s, rfile s, file_len s, mem s, held s).

Lemma frame_eq s s' : frame s' = frame s -> s' = set_holes s (holes s') (h2s s').
Proof. destruct s, s'. cbn. now intros [= -> -> -> -> -> -> -> ->]. Qed.

Lemma wid_nf s i m :
  slot s i = Some m ->
  write_if_dirty s i =
  put_slot (set_rfile s (if r_state m =? ST_WRITE then set_at (rfile s) (N.to_nat i) (Some (srec m)) None else rfile s))
           i (Some (fin m)).
Proof.
  intros Hs. unfold write_if_dirty, fin. rewrite Hs. destruct (r_state m =? ST_WRITE).
  - reflexivity.
  - rewrite set_rfile_same. unfold put_slot, set_slots.
    assert (H : set_at (slots s) (N.to_nat i) (Some m) None = slots s).
    { unfold slot, get in Hs. revert Hs. generalize (N.to_nat i) as n. generalize (slots s) as l.
      induction l as [|h t IH]; intros [|n]; cbn [nth_opt set_at]; try discriminate.
      - destruct h; [|discriminate]. now intros [= ->].
      - intros H. now rewrite IH. }
    rewrite H. destruct s; reflexivity.
Qed.

Lemma slot_wid s i j :
  slot (write_if_dirty s i) j = if j =? i then option_map fin (slot s i) else slot s j.
Proof.
  destruct (slot s i) as [m|] eqn:Hs.
  - rewrite (wid_nf s i m Hs), slot_put_slot. destruct (j =? i); reflexivity.
  - unfold write_if_dirty. rewrite Hs. destruct (N.eqb_spec j i) as [->|]; [now rewrite Hs|reflexivity].
Qed.

Lemma mem_wid s i : mem (write_if_dirty s i) = mem s.
Proof. unfold write_if_dirty. destruct (slot s i) as [m|]; [|reflexivity]. destruct (_ =? _); reflexivity. Qed.
