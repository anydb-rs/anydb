(* Rawdb/AllocFacts.v — the size bound `op_fits` on a request; the empty database satisfies Inv
   (`inv_init`). *)
From Anydb Require Import Common.Base Gen.Consts Rawdb.Alloc Rawdb.AllocInv.

Lemma gen_byte_lt w k : gen_byte w k < 256.
Proof. unfold gen_byte. apply N.mod_lt. lia. Qed.

Lemma mem_write_spec m off f n a :
  mem_write m off f n a = if (off <=? a) && (a <? off + n) then f (a - off) else m a.
Proof. reflexivity. Qed.

Lemma mem_copy_spec m src dst n a :
  mem_copy m src dst n a = if (dst <=? a) && (a <? dst + n) then m (a - dst + src) else m a.
Proof. reflexivity. Qed.

(* on the request alone, `s` is not read; MAX_RESERVED_SIZE / 4 = 256 GiB, two64 / 4 = 2^62 *)
Definition op_fits (s : st) (o : op) : Prop :=
  match o with
  | Write _ _ n | WriteAt _ _ n _ | TruncWrite _ _ n _ => n <= MAX_RESERVED_SIZE / 4
  | SetMinLen n => n < two64 / 4
  | SetMinRegions n => n < two64 / (4 * PAGE_SIZE)
  | _ => True
  end.

Lemma slot_init min_len i : slot (init min_len) i = None.
Proof. unfold slot, get, init. cbn. destruct (N.to_nat i); reflexivity. Qed.

Lemma inv_init min_len : Inv (init min_len).
Proof.
  constructor.
  - constructor.
  - intros a. cbn. destruct (a <? 0) eqn:E; [lia|reflexivity].
  - intros i m H. rewrite slot_init in H. discriminate.
  - intros a i. split; [discriminate|]. intros (m & H & _). rewrite slot_init in H. discriminate.
  - cbn. tauto.
  - split.
    + intros start size. split; [discriminate|]. intros (l & H & _). discriminate.
    + intros size l H. discriminate.
  - intros a z a' z' H. discriminate.
  - cbn. lia.
  - intros i j mi mj H. rewrite slot_init in H. discriminate.
  - intros i. rewrite slot_init. right. unfold get. cbn. destruct (N.to_nat i); reflexivity.
  - reflexivity.
Qed.
