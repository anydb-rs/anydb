(* C01, the writes.  `write_core`: one slot is rewritten and bytes are written inside a zone that no
   other live region meets.  `write_with_abs` reaches it from AllocShape.write_with_unfold: the
   write fits in the reserve, or AllocOutcome.grow_shape. *)
From Anydb Require Import Common.Base Rawdb.Alloc Rawdb.AllocSpec Rawdb.AllocInv
  Rawdb.CoverFacts Rawdb.InvLayout Rawdb.AllocErr
  Rawdb.AllocRefine.

(* what the reference write produces, in the coordinates of the model *)
Definition wspec (s : st) (i : N) (m : rmeta) (f : N -> N) (n wo nl : N) (r' : sreg) : Prop :=
  s_len r' = nl
  /\ (forall k, k < nl -> s_data r' k = if (wo <=? k) && (k <? wo + n) then f (k - wo) else mem s (r_start m + k))
  /\ s_persisted r' = rfile_has s i || negb (nl =? r_len m).

Lemma s_write_char s i m f n at_ tr :
  w_oob at_ (r_len m) = false ->
  exists r', s_write (sview s i m) f n at_ tr = Ok r'
             /\ wspec s i m f n (w_off at_ (r_len m)) (w_len at_ tr (r_len m) n) r'.
Proof.
  unfold w_oob, s_write, wspec, w_off, w_len. cbn [s_len sview s_data s_persisted]. destruct at_ as [a|].
  - intros ->. eexists. split; [reflexivity|]. cbn [s_len s_data s_persisted]. repeat split.
  - intros _. eexists. split; [reflexivity|]. cbn [s_len s_data s_persisted]. split; [reflexivity|]. split.
    + intros k Hk. destruct (k <? r_len m) eqn:E1; destruct ((r_len m <=? k) && (k <? r_len m + n)) eqn:E2; try reflexivity; lia.
    + f_equal. destruct (n =? 0) eqn:E1; destruct (r_len m + n =? r_len m) eqn:E2; try reflexivity; lia.
Qed.

Lemma s_write_oob s i m f n at_ tr :
  w_oob at_ (r_len m) = true -> s_write (sview s i m) f n at_ tr = Err WriteOutOfBounds.
Proof.
  unfold w_oob, s_write. cbn [s_len sview]. destruct at_ as [a|]; [|discriminate]. now intros ->.
Qed.

(* everything below the new length that is not written lies below the prefix a relocation copies *)
Lemma w_copy_covers at_ tr ln n k :
  w_oob at_ ln = false -> k < w_len at_ tr ln n ->
  (w_off at_ ln <=? k) && (k <? w_off at_ ln + n) = false ->
  k < (if tr then w_off at_ ln else ln).
Proof. unfold w_oob, w_off, w_len. destruct at_ as [a|]; destruct tr; lia. Qed.

Lemma mark_dirty_fields m a b :
  r_start (m_mark_dirty m a b) = r_start m /\ r_len (m_mark_dirty m a b) = r_len m
  /\ r_id (m_mark_dirty m a b) = r_id m /\ r_reserved (m_mark_dirty m a b) = r_reserved m
  /\ r_state (m_mark_dirty m a b) = r_state m.
Proof. repeat split. Qed.

(* Slot i becomes m', at zs with length nl.  The bytes of s' are `base` with the write laid over it
   at zs + wo; `base` is the memory of s outside the zone [zs, zs + zl) and, inside it, carries at
   zs + k the byte k of the region wherever the write does not cover k.  No other region meets the
   zone. *)
Lemma write_core s s' i m m' f n wo nl zs zl base r' :
  Inv s -> ids_unique s' -> slot s i = Some m ->
  wspec s i m f n wo nl r' ->
  wo + n <= nl -> nl <= zl ->
  (forall j, slot s' j = if j =? i then Some m' else slot s j) ->
  r_id m' = r_id m -> r_len m' = nl -> r_start m' = zs ->
  (forall j mj, j <> i -> slot s j = Some mj -> r_start mj + r_reserved mj <= zs \/ zs + zl <= r_start mj) ->
  (forall a, mem s' a = mem_write base (zs + wo) f n a) ->
  (forall a, a < zs \/ zs + zl <= a -> base a = mem s a) ->
  (forall k, k < nl -> (wo <=? k) && (k <? wo + n) = false -> base (zs + k) = mem s (r_start m + k)) ->
  (forall j, j <> i -> rfile_has s' j = rfile_has s j) ->
  rfile_has s' i = rfile_has s i || negb (nl =? r_len m) ->
  held s' = held s ->
  spec_eq (abs s') (mkSpec (sput (r_id m) r' (sp_regions (abs s))) (held s)).
Proof.
  intros HI Hu' Hs (W1 & W2 & W3) Hwn Hnl Hsl Hid Hlen Hst Hzone Hmem Hb1 Hb2 Hrf Hrfi Hheld.
  refine (spec_eq_set s s' i (Some m) m' r' _ _ (inv_ids s HI) Hu' Hs ?[regions] ?[handles] Hsl ?[others] ?[view]).
  [regions]: { intros x. rewrite sget_sput, Hid. destruct (x =? r_id m); reflexivity. }
  [handles]: { intros x. unfold is_held. now rewrite Hheld. }
  [others]: { intros j mj Hne Hj. split; [reflexivity|]. split; [|exact (Hrf j Hne)]. cbn [sview s_len s_data]. intros k Hk.
    pose proof (inv_region_len s j mj HI Hj) as Hlr.
    rewrite Hmem. unfold mem_write. pose proof (Hzone j mj Hne Hj) as Hz.
    destruct ((zs + wo <=? r_start mj + k) && (r_start mj + k <? zs + wo + n)) eqn:E; [lia|]. apply Hb1. lia. }
  [view]: { unfold sview, sreg_eq. cbn [s_len s_data s_persisted]. rewrite Hlen, Hst, W1, W3. split; [reflexivity|]. split; [|exact Hrfi].
    intros k Hk. rewrite Hmem, (W2 k Hk). unfold mem_write.
    replace ((zs + wo <=? zs + k) && (zs + k <? zs + wo + n)) with ((wo <=? k) && (k <? wo + n)) by lia.
    destruct ((wo <=? k) && (k <? wo + n)) eqn:E; [f_equal; lia|now apply Hb2]. }
Qed.

(* `base` carries the first cl bytes of the region at zs: all that the write does not cover *)
Lemma write_core_wput s sB i m x f n wo nl nr cl zs base r' :
  Inv s -> ids_unique (wput sB i x) -> slot s i = Some m -> wspec s i m f n wo nl r' ->
  wo + n <= nl -> nl <= nr -> r_len m <> nl ->
  written_at s i m f n wo nl nr cl sB zs x base ->
  (forall k, k < nl -> (wo <=? k) && (k <? wo + n) = false -> k < cl) ->
  spec_eq (abs (wput sB i x)) (mkSpec (sput (r_id m) r' (sp_regions (abs s))) (held s)).
Proof.
  intros HI Hu' Hs HW Hwn Hnl Hne G Hcov. destruct (wa_meta G) as (X1 & X2 & _ & X4 & X5).
  pose proof (wa_slots G) as E1. pose proof (wa_rfile G) as E2. pose proof (wa_held G) as E3.
  destruct (meta_eq_fin x) as (F1 & F2 & _ & F3).
  assert (Hrf : forall j, rfile_has sB j = rfile_has s j) by (intros j; unfold rfile_has; now rewrite E2).
  refine (write_core s (wput sB i x) i m (fin x) f n wo nl zs nr base r' HI Hu' Hs HW Hwn Hnl ?[table]
            (eq_trans F3 X4) (eq_trans F2 X2) (eq_trans F1 X1) (wa_zone G) ?[bytes] (wa_outside G) ?[copied]
            ?[flags] ?[flag] ?[handles]).
  [table]: { intros j. rewrite slot_wput. now rewrite (slot_slots s sB j E1). }
  [bytes]: { intros a. now rewrite mem_wput, (wa_mem G). }
  [copied]: { intros k Hk Hnw. apply (wa_copied G). now apply Hcov. }
  [flags]: { intros j Hj. rewrite rfile_has_wput. destruct (N.eqb_spec j i); [contradiction|apply Hrf]. }
  [flag]: { rewrite rfile_has_wput, N.eqb_refl, X5, Hrf. destruct (N.eqb_spec nl (r_len m)); [congruence|].
    cbn [negb]. now rewrite orb_true_r. }
  [handles]: { now rewrite held_wput. }
Qed.

Lemma write_with_abs s i m f n at_ tr s' r r' :
  Inv s -> ids_unique s' -> slot s i = Some m -> w_oob at_ (r_len m) = false ->
  wspec s i m f n (w_off at_ (r_len m)) (w_len at_ tr (r_len m) n) r' ->
  write_with s i f n at_ tr = AOk (s', r) ->
  spec_eq (abs s') (mkSpec (sput (r_id m) r' (sp_regions (abs s))) (held s)).
Proof.
  intros HI Hu' Hs Hoob HW. rewrite (write_with_unfold s i m f n at_ tr Hs), Hoob. cbv zeta.
  destruct (w_off_len at_ tr (r_len m) n Hoob) as [Hwo Hwn].
  pose proof (fun k => w_copy_covers at_ tr (r_len m) n k Hoob) as Hcov.
  pose proof (inv_region_len s i m HI Hs) as Hlen.
  set (wo := w_off at_ (r_len m)) in *. set (nl := w_len at_ tr (r_len m) n) in *.
  destruct (N.leb_spec nl (r_reserved m)) as [Hfit|Hgrow].
  { assert (Hzone : forall j mj, j <> i -> slot s j = Some mj ->
              r_start mj + r_reserved mj <= r_start m \/ r_start m + r_reserved m <= r_start mj)
      by (intros j mj Hne Hj; exact (region_region_disjoint s j i mj m HI Hne Hj Hs)).
    destruct (db_write s (r_start m + wo) f n) as [s1|] eqn:Ew; [|discriminate].
    apply db_write_eq in Ew. subst s1.
    destruct (N.eqb_spec nl (r_len m)) as [El|El].
    - (* the length stays: the slot is marked dirty and not rewritten; `base` is the memory of s *)
      intros [= <- _].
      refine (write_core s _ i m (m_mark_dirty m wo n) f n wo nl (r_start m) (r_reserved m) (mem s) r' HI Hu' Hs HW Hwn Hfit
                ?[table] eq_refl (eq_sym El) eq_refl Hzone ?[bytes] (fun a _ => eq_refl) (fun k _ _ => eq_refl)
                ?[flags] ?[flag] ?[handles]).
      [table]: { intros j. rewrite slot_upd. change (slot (set_mem s ?mm) ?j) with (slot s j). rewrite Hs.
        destruct (j =? i); reflexivity. }
      [bytes]: { intros a. now rewrite mem_upd. }
      [flags]: { intros j _. now rewrite rfile_has_upd. }
      [flag]: { rewrite rfile_has_upd, (proj2 (N.eqb_eq _ _) El). cbn [negb]. now rewrite orb_false_r. }
      [handles]: { now rewrite held_upd. }
    - rewrite upd_upd. erewrite wid_upd_wput by exact Hs. intros [= <- _].
      apply (write_core_wput s _ i m _ f n wo nl (r_reserved m) nl (r_start m) (mem s) r' HI Hu' Hs HW Hwn Hfit);
        [congruence|apply fits_written_at; [exact HI|exact Hs|congruence]|auto]. }
  (* whichever way the region is placed, grow_shape describes the result *)
  destruct (r_reserved m =? 0); [discriminate|].
  destruct (double_until 64 (r_reserved m) nl) as [nr|e0|] eqn:Ed; [|discriminate|discriminate].
  apply (double_until_mod _ _ _ _ (region_reserved_page s i m HI Hs)) in Ed as Hnr. apply double_until_ge in Ed.
  destruct (grow_shape s i m f n wo nl nr (if tr then wo else r_len m) HI Hs)
    as (sB & zs & x & base & -> & G); [destruct tr; lia|lia|exact Hnr|].
  clear Hnr.
  (* the test is the one of `grown`: where it fails the write panics *)
  destruct (_ && _ && _); [|discriminate]. intros [= <- _].
  apply (write_core_wput s sB i m x f n wo nl nr (if tr then wo else r_len m) zs base r' HI Hu' Hs HW Hwn);
    auto; try lia.
Qed.

Lemma refines_write_with s o id f n at_ tr :
  step s o = with_region s id (fun i => write_with s i f n at_ tr) ->
  spec_step (abs s) o = spec_wr (abs s) id f n at_ tr ->
  Inv s -> step s o <> APanic -> (forall s', step s o <> AErr s' RegionSizeOverflow) ->
  refines_step s o.
Proof.
  intros Hstep Hspec HI Hnp Hov. apply (refines_at s o id _ _ Hstep Hspec). clear Hstep Hspec.
  intros i m Hs Hid Hstep Hspec. rewrite Hstep in Hnp.
  destruct (w_oob at_ (r_len m)) eqn:Eo.
  { rewrite (s_write_oob s i m f n at_ tr Eo) in Hspec.
    rewrite (write_with_unfold s i m f n at_ tr Hs), Eo in Hstep.
    exact (refines_refused _ _ _ Hstep Hspec). }
  destruct (s_write_char s i m f n at_ tr Eo) as (r' & Hsw & HW). rewrite Hsw in Hspec.
  pose proof (write_with_cases s i m f n at_ tr HI Hs) as Hc.
  destruct (write_with s i f n at_ tr) as [[s' r]|s' e|] eqn:Ew; [| |congruence].
  - eapply refines_ok; [exact HI|exact Hstep|exact Hspec|intros Hu']. rewrite <- Hid. eapply write_with_abs; eauto.
  - destruct Hc as [-> [[Eo' _]|(-> & _)]]; [congruence|]. destruct (Hov s Hstep).
Qed.
