(* Lookups (`sget`) in the region list of the reference state (AllocSpec.v) after sput / sdel /
   filter.  Filtering by VALUE (`sget_filter_val`) needs unique keys: with a duplicated key the
   filter could expose a shadowed later entry; hence `keys_nodup_*`. *)
From Anydb Require Import Common.Base Rawdb.Alloc Rawdb.AllocSpec.

Lemma sget_filter_key (p : N -> bool) id l :
  sget id (filter (fun kv => p (fst kv)) l) = if p id then sget id l else None.
Proof.
  induction l as [|[k v] t IH]; cbn [filter sget fst]. { destruct (p id); reflexivity. }
  destruct (p k) eqn:Ep; cbn [sget]; rewrite IH; destruct (N.eqb_spec k id) as [<-|]; try reflexivity;
    now rewrite Ep.
Qed.

Lemma sdel_filter id l : sdel id l = filter (fun kv => negb (fst kv =? id)) l.
Proof.
  induction l as [|[k v] t IH]; cbn [sdel filter fst]; [reflexivity|]. rewrite IH. now destruct (k =? id).
Qed.

Lemma sget_sdel id id' l : sget id' (sdel id l) = if id' =? id then None else sget id' l.
Proof. rewrite sdel_filter, (sget_filter_key (fun k => negb (k =? id))). now destruct (id' =? id). Qed.

Lemma sget_sput id id' v l : sget id' (sput id v l) = if id' =? id then Some v else sget id' l.
Proof.
  unfold sput. cbn [sget]. rewrite sget_sdel, (N.eqb_sym id id'). destruct (id' =? id); reflexivity.
Qed.

Lemma sget_In id v l : sget id l = Some v -> In (id, v) l.
Proof.
  induction l as [|[k w] t IH]; cbn [sget In]; [discriminate|].
  destruct (N.eqb_spec k id) as [->|]; [intros [= ->]; now left|auto].
Qed.

Lemma In_sget_some id v l : In (id, v) l -> sget id l <> None.
Proof.
  induction l as [|[k w] t IH]; cbn [sget In]; [tauto|].
  destruct (N.eqb_spec k id); [discriminate|]. intros [[= ]|Hin]; [contradiction|auto].
Qed.

Lemma sget_none_notin id l : sget id l = None <-> ~ In id (map fst l).
Proof.
  induction l as [|[k w] t IH]; cbn [sget map fst In]; [tauto|].
  destruct (N.eqb_spec k id); [|rewrite IH]; intuition discriminate.
Qed.

Lemma sget_filter_val (p : sreg -> bool) id l : NoDup (map fst l) ->
  sget id (filter (fun kv => p (snd kv)) l) =
  match sget id l with Some v => if p v then Some v else None | None => None end.
Proof.
  induction l as [|[k w] t IH]; cbn [filter sget map fst snd]; [reflexivity|].
  intros Hnd. inversion Hnd as [|k' t' Hk Ht]; subst. specialize (IH Ht).
  destruct (N.eqb_spec k id) as [->|Hne].
  - apply sget_none_notin in Hk. destruct (p w); cbn [sget]; [now rewrite N.eqb_refl|now rewrite IH, Hk].
  - destruct (p w); cbn [sget]; [destruct (N.eqb_spec k id); [contradiction|]|]; exact IH.
Qed.

Lemma keys_filter_In (p : N * sreg -> bool) x l : In x (map fst (filter p l)) -> In x (map fst l).
Proof. rewrite !in_map_iff. intros (kv & Hk & Hin). apply filter_In in Hin. exists kv. tauto. Qed.
Lemma keys_nodup_filter (p : N * sreg -> bool) l : NoDup (map fst l) -> NoDup (map fst (filter p l)).
Proof.
  induction l as [|[k w] t IH]; cbn [filter map fst]; [auto|].
  intros Hnd. inversion Hnd as [|k' t' Hk Ht]; subst.
  destruct (p (k, w)); [|auto]. cbn [map fst]. constructor; [|auto].
  intros Hin. apply Hk. eapply keys_filter_In. exact Hin.
Qed.
Lemma keys_nodup_sdel id l : NoDup (map fst l) -> NoDup (map fst (sdel id l)).
Proof. rewrite sdel_filter. apply keys_nodup_filter. Qed.
Lemma keys_nodup_sput id v l : NoDup (map fst l) -> NoDup (map fst (sput id v l)).
Proof.
  intros H. unfold sput. cbn [map fst]. constructor; [|apply keys_nodup_sdel; exact H].
  apply sget_none_notin. now rewrite sget_sdel, N.eqb_refl.
Qed.

(* The cases of spec_step for the operations addressed at a name (the writes, Truncate, Rename,
   Remove, FlushRegion) unfold to `sp_with`, its local `wr` to `spec_wr`: `reflexivity` or `apply`
   identifies them, there is no rewriting lemma. *)
Definition sp_with (sp : spec) (id : N) (k : sreg -> spec * res aerr out) : spec * res aerr out :=
  match sget id (sp_regions sp) with None => (sp, Err RegionNotFound) | Some r => k r end.

Definition spec_wr (sp : spec) (id : N) (f : N -> N) (n : N) (at_ : option N) (tr : bool)
  : spec * res aerr out :=
  sp_with sp id (fun r => match s_write r f n at_ tr with
                          | Ok r' => (mkSpec (sput id r' (sp_regions sp)) (sp_held sp), Ok OUnit)
                          | Err e => (sp, Err e)
                          | Panic => (sp, Panic)
                          end).

Lemma sp_with_frame sp id k id' :
  (forall r, sget id' (sp_regions (fst (k r))) = sget id' (sp_regions sp)) ->
  sget id' (sp_regions (fst (sp_with sp id k))) = sget id' (sp_regions sp).
Proof. intros Hk. unfold sp_with. destruct (sget id (sp_regions sp)); [apply Hk|reflexivity]. Qed.
