(* Rawdb/InvStep.v — C01 over runs, for histories within `ops_ok`.  `refines_run`: every step refines the
   reference applied to the abstraction of the state it starts from.  `refines_run_single`: ONE reference
   run started from the abstraction of the initial state simulates the whole history, with stepwise
   agreeing results. *)
From Anydb Require Import Common.Base Rawdb.Alloc Rawdb.AllocSpec Rawdb.AllocInv Rawdb.AllocNoPanic.
From Anydb Require Export Rawdb.InvRun.
From Anydb Require Rawdb.CompactFacts Rawdb.AllocRefine Rawdb.AllocRefineC Rawdb.AllocRefineAll Rawdb.SpecCongr.

(* C13, the full statement, every operation: retain_regions checks all candidates before it removes
   anything (/repo 881ef86) *)
Definition c13_full : Prop :=
  forall s o s' e, Inv s -> step s o = AErr s' e -> e <> RegionMetadataUnwritten -> s' = s.

Theorem c13_full_proved : c13_full.
Proof. exact c13_rawdb. Qed.

Inductive ops_ok : st -> list op -> Prop :=
| ops_ok_nil s : ops_ok s []
| ops_ok_cons s o ops :
    AllocNoPanic.op_fits_strong s o -> ops_ok (fst (step_total s o)) ops -> ops_ok s (o :: ops).

Theorem refines_run ops : forall s, Inv s -> ops_ok s ops ->
  forall pre o post, ops = pre ++ o :: post -> AllocRefine.refines_step (run s pre) o.
Proof.
  induction ops as [|o0 ops IH]; intros s HI Hok pre o post E.
  - destruct pre; discriminate.
  - inversion Hok as [|s1 o1 ops1 Hf Hrest]; subst. destruct pre as [|p pre]; cbn [app] in E; inversion E; subst.
    + unfold run. cbn [fold_left]. now apply AllocRefineAll.c01_refines_step_strong.
    + unfold run. cbn [fold_left]. apply (IH (fst (step_total s p)) (inv_step s p HI) Hrest pre o post eq_refl).
Qed.

Fixpoint run_results (s : st) (ops : list op) : list (res aerr out) :=
  match ops with
  | [] => []
  | o :: t => snd (step_total s o) :: run_results (fst (step_total s o)) t
  end.

Lemma run_cons s o ops : run s (o :: ops) = run (fst (step_total s o)) ops.
Proof. reflexivity. Qed.

Theorem refines_run_single ops : forall s, Inv s -> ops_ok s ops ->
  spec_eq (abs (run s ops)) (SpecCongr.spec_run (abs s) ops) /\
  Forall2 res_agree (run_results s ops) (SpecCongr.spec_results (abs s) ops).
Proof.
  induction ops as [|o ops IH]; intros s HI Hok.
  - split; [apply CompactFacts.spec_eq_refl|constructor].
  - inversion Hok as [|s1 o1 ops1 Hf Hrest]; subst.
    destruct (AllocRefineAll.c01_refines_step_strong s o HI Hf) as [Hst Hres].
    pose proof (inv_step s o HI) as HI1.
    destruct (IH _ HI1 Hrest) as [IH1 IH2].
    destruct (SpecCongr.spec_run_congr ops (abs (fst (step_total s o))) (fst (spec_step (abs s) o))) as [C1 C2].
    + now apply AllocRefineC.abs_wf.
    + apply SpecCongr.spec_step_wf. now apply AllocRefineC.abs_wf.
    + exact Hst.
    + rewrite run_cons. cbn [SpecCongr.spec_run SpecCongr.spec_results run_results]. split.
      * eapply CompactFacts.spec_eq_trans; eauto.
      * constructor; [exact Hres|]. rewrite <- C2. exact IH2.
Qed.

Theorem refines_reopen s :
  Inv s ->
  spec_eq (abs (fst (step_total s Reopen)))
          (mkSpec (filter (fun kv => s_persisted (snd kv)) (sp_regions (abs s))) []).
Proof.
  intros HI. destruct (AllocRefineAll.c01_refines_step_strong s Reopen HI) as [H _]; [split; exact I|exact H].
Qed.

Theorem compact_abs s : Inv s -> spec_eq (abs (fst (compact s))) (abs s).
Proof. exact (AllocRefineC.compact_abs s). Qed.
