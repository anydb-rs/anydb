(* Database::compact = the events of flush, then one CPunch per punched candidate range (any subset
   of Alloc.punch_ranges of the flushed state: the oracle), a data sync when something was punched,
   then the completion marker. *)
From Anydb Require Import Common.Base Rawdb.Alloc Rawdb.AllocInv
  Rawdb.InvLayout Rawdb.CompactFacts
  Rawdb.Crash Rawdb.CrashFacts Rawdb.CrashInv Rawdb.AllocEvents Rawdb.AllocDisciplined
  Rawdb.AllocDisciplinedOps Rawdb.AllocDisciplinedSync.

Lemma punches_settled s ps :
  Inv s ->
  (forall r, In r ps -> forall j w, rf s j = Some w -> disjoint (fst r) (snd r) (sr_start w) (sr_len w) = true) ->
  triple (Settled s) (map (fun r => CPunch (fst r) (snd r)) ps) (Settled s).
Proof.
  intros HI. induction ps as [|r t IH]; intros H; [apply triple_nil|].
  apply (triple_app _ (Settled s) _ [CPunch (fst r) (snd r)]).
  - apply (settled_punch s _ _ HI), H. now left.
  - apply IH. intros r' Hr. apply H. now right.
Qed.

Theorem ok_compact orc s : Inv s -> step_ok orc s Compact.
Proof.
  intros HI. pose proof (compact_rfile s) as Erf. pose proof (compact_file_len s) as Efl.
  set (ps := filter (fun r => orc (fst r) (snd r)) (punch_ranges (fst (flush s)))).
  apply (ok_of_settled orc s Compact
           (flush_events s ++ map (fun r => CPunch (fst r) (snd r)) ps ++ (match ps with [] => [] | _ => [CDataSync] end) ++ [CFlushed]) HI);
    unfold step_events_o, step_total, closer; cbn [step op_ids body_events]; destruct (compact s) as [sc nc]; cbn [fst] in *.
  - unfold punch_events. fold ps. now rewrite <- !app_assoc.
  - apply (triple_app _ (Settled s) _ _ _ (flush_settles s HI)), (triple_app _ (Settled s) _ (map _ ps)).
    + apply (punches_settled s ps HI). intros r Hr j w Hw. apply filter_In in Hr. destruct Hr as [Hr _].
      destruct (punch_disjoint_flush s HI r Hr) as [Hd _]. destruct (rf_some_slot s j w HI Hw) as (mj & Hsj & _ & <-).
      pose proof (flush_slot s j) as Hk. rewrite Hsj in Hk. destruct (slot (fst (flush s)) j) as [mj'|] eqn:Hs'; [|destruct Hk].
      destruct Hk as (E1 & E2 & _). specialize (Hd j mj' Hs'). unfold disjoint, srec, sr_start, sr_len. lia.
    + (* something was punched: a data sync, which leaves nothing pending *)
      apply (triple_app _ (Settled s) _ _ [CFlushed]); [|apply settled_flushed].
      destruct ps; [apply triple_nil|apply settled_datasync].
  - intros j. unfold rf. now rewrite Erf.
  - exact Efl.
Qed.
