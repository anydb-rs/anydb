(* Rawdb/ExprFacts.v — the expressions `x_*` of Gen/Exprs.v are re-translated from /repo on every
   run (tools/gen_exprs.py).  `ceil_page_is_source` and `set_min_len_is_source` equate the model's
   `ceil_page` and `set_min_len` with them; `write_arith_is_source` and `punch_range_is_source`
   equate them with the formulas written in the lemma itself and stop checking when a formula in the
   source differs from those. *)
From Anydb Require Import Common.Base Gen.Consts Gen.Exprs Rawdb.Alloc Rawdb.CoverFacts.

Lemma page_is_pow2 : PAGE_SIZE = 2 ^ 12 /\ PAGE_SIZE_MINUS_1 = N.ones 12.
Proof. split; reflexivity. Qed.

Lemma ceil_page_is_source n : ceil_page n = x_ceil_page n.
Proof.
  unfold ceil_page, x_ceil_page. destruct page_is_pow2 as [-> ->].
  rewrite N.ldiff_ones_r, N.shiftr_div_pow2, N.shiftl_mul_pow2. reflexivity.
Qed.

Lemma set_min_len_is_source s n :
  file_len (set_min_len s n) =
  if ceil_page n <=? file_len s then file_len s else x_grow_target (ceil_page n) (file_len s).
Proof.
  unfold set_min_len, x_grow_target. rewrite <- ceil_page_is_source.
  destruct (ceil_page n <=? file_len s); [reflexivity|].
  cbn [file_len set_file_len]. reflexivity.
Qed.

Lemma write_arith_is_source :
  (forall ln n, x_new_len_append ln n = ln + n)
  /\ (forall ln n a tr, x_new_len_at ln n a tr = if tr then a + n else N.max (a + n) ln)
  /\ (forall start off, x_write_start start off = start + off)
  /\ (forall nr r, x_added_reserve nr r = nr - r)
  /\ (forall off ln tr, x_copy_len off ln tr = if tr then off else ln)
  /\ (forall start nr, x_extend_target start nr = start + nr)
  /\ (forall start r, x_adjacent_hole_start start r = start + r)
  /\ (forall nl r, x_fits nl r = (nl <=? r))
  /\ (forall a ln, x_write_refused a ln = (ln <? a))
  /\ (forall f ln, x_truncate_noop f ln = (f =? ln))
  /\ (forall f ln, x_truncate_refused f ln = (ln <? f))
  /\ (forall e, x_create_min_len e = e + PAGE_SIZE)
  /\ (forall k, x_min_regions_data k = k * PAGE_SIZE)
  /\ (forall k, x_min_regions_meta k = k * SIZE_OF_REGION_METADATA).
Proof. repeat split; reflexivity. Qed.

Lemma punch_range_is_source m :
  let c := ceil_page (r_len m) in
  c <? r_reserved m = true ->
  (x_punch_start (r_start m) c, x_punch_len (r_reserved m) c) = (r_start m + c, r_reserved m - c).
Proof. reflexivity. Qed.

Lemma punch_tail_above_len m :
  let c := ceil_page (r_len m) in r_start m + r_len m <= x_punch_start (r_start m) c.
Proof.
  cbn zeta. unfold x_punch_start. pose proof (ceil_page_ge (r_len m)). lia.
Qed.
