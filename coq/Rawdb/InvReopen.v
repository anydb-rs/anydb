(* Rawdb/InvReopen.v — `reopen` (Regions::fill + Layout::from at open) re-establishes Inv from the
   regions file alone (`inv_reopen`) and does not panic: the slots read back are exactly the live slots
   of the closed state that were ever written (`fill_sub`), and the rebuilt hole maps tile the gaps
   between them (`gaps_spec`, loop invariant `gaps_inv`). *)
From Anydb Require Import Common.Base Common.ListFacts Gen.Consts Rawdb.AMap Rawdb.Alloc Rawdb.AllocInv
  Rawdb.AllocFacts Rawdb.AMapFacts Rawdb.CoverFacts Rawdb.InvLayout Rawdb.HolesFacts Rawdb.InvOps Rawdb.CompactFacts Rawdb.InvReopenAux.

(* the metadata of a slot as Regions::fill reads it back *)
Definition clean (m : rmeta) : rmeta :=
  mkR (r_start m) (r_len m) (r_reserved m) (r_id m) ST_CLEAN u64_max 0.

Definition fill_one (o : option slotrec) : option rmeta :=
  match o with
  | Some (start, ln, reserved, id) =>
      if valid_slotrec (start, ln, reserved, id) then Some (mkR start ln reserved id ST_CLEAN u64_max 0) else None
  | None => None
  end.

Lemma inv_valid_slotrec s i m : Inv s -> slot s i = Some m -> valid_slotrec (srec m) = true.
Proof.
  intros HI Hs. destruct (inv_region_aligned s i m HI Hs) as (H1 & H2 & H3). cbn [rext fst snd] in H1, H2, H3.
  destruct (inv_len s HI i m Hs) as [H4 _].
  pose proof (mod0_ge _ _ PAGE_nz H2 H3) as H5.
  unfold valid_slotrec, srec. rewrite !andb_true_iff, !N.eqb_eq, !N.leb_le. auto.
Qed.

Lemma rfile_some s i rec :
  Inv s -> get (rfile s) i = Some (Some rec) ->
  exists m, slot s i = Some m /\ (r_state m =? ST_WRITE) = false /\ rec = srec m.
Proof.
  intros HI Hg. pose proof (inv_rfile s HI i) as Hr. destruct (slot s i) as [m|].
  - exists m. destruct (r_state m =? ST_WRITE) eqn:E.
    + destruct Hr as [Hr _]. congruence.
    + rewrite Hg in Hr. injection Hr as ->. auto.
  - destruct Hr as [Hr|Hr]; congruence.
Qed.

(* under Inv every written entry is valid: fill keeps it *)
Lemma fill_get s i :
  Inv s ->
  get (fill_slots (rfile s)) i =
  match get (rfile s) i with
  | Some (Some (a, l, r, id)) => Some (Some (mkR a l r id ST_CLEAN u64_max 0))
  | Some None => Some None
  | None => None
  end.
Proof.
  intros HI. unfold fill_slots. rewrite (get_map fill_one).
  destruct (get (rfile s) i) as [[[[[a l] r] id]|]|] eqn:E; cbn [option_map fill_one]; try reflexivity.
  destruct (rfile_some _ _ _ HI E) as (m & Hm & _ & Hrec).
  pose proof (inv_valid_slotrec s i m HI Hm) as Hv. rewrite <- Hrec in Hv. rewrite Hv. reflexivity.
Qed.

Lemma fill_sub s i m' :
  Inv s -> get (fill_slots (rfile s)) i = Some (Some m') ->
  exists m, slot s i = Some m /\ (r_state m =? ST_WRITE) = false /\ m' = clean m.
Proof.
  intros HI. rewrite (fill_get s i HI).
  destruct (get (rfile s) i) as [[[[[a l] r] id]|]|] eqn:E; try discriminate.
  intros [= <-]. destruct (rfile_some _ _ _ HI E) as (m & Hm & Hst & Hrec).
  exists m. split; [exact Hm|]. split; [exact Hst|]. unfold srec in Hrec. injection Hrec as -> -> -> ->. reflexivity.
Qed.

(* H, Q: the two hole maps built so far; p: prev_end; R: the regions already passed.  A hole is the gap
   before a passed region, so it ends before p. *)
Definition gaps_inv (H : amap N) (Q : amap (list N)) (p : N) (R : list ext) : Prop :=
  holes_ok H Q /\ (forall a, (owners H a + owners R a)%nat = if a <? p then 1%nat else 0%nat)
  /\ p mod PAGE_SIZE = 0 /\ (forall a z, aget a H = Some z -> a + z < p).

Lemma gaps_inv_nil : gaps_inv [] [] 0 [].
Proof.
  split; [|split; [|split; [reflexivity|discriminate]]].
  - exact holes_ok_nil.
  - intros a. destruct (N.ltb_spec a 0); [lia|reflexivity].
Qed.

Lemma gaps_inv_step s p R start z :
  gaps_inv (holes s) (h2s s) p R -> p <= start -> aligned (start, z) ->
  let s' := if p =? start then s else insert_hole s p (start - p) in
  gaps_inv (holes s') (h2s s') (start + z) (R ++ [(start, z)]) /\ frame s' = frame s.
Proof.
  intros (Hok & Hcov & Hp & Hend) Hle (A1 & A2 & A3). cbn [fst snd] in A1, A2, A3. cbv zeta.
  assert (Hp' : (start + z) mod PAGE_SIZE = 0) by now apply mod0_add.
  assert (Hgap : p <> start -> aligned (p, start - p)).
  { intros Hne. split; [exact Hp|]. split; [now apply mod0_sub|]. cbn [snd]. clear Hp A1 A2 Hp'. lia. }
  (* the `mod` facts are cleared as soon as they have served: with them in sight every lia below
     takes seconds *)
  clear Hp A1 A2. split; [|destruct (p =? start); reflexivity].
  destruct (N.eqb_spec p start) as [->|Hne]; st_simpl; (split; [|split; [|split; [exact Hp'|]]]); clear Hp'.
  - exact Hok.
  - intros a. rewrite owners_app, owners_one, below_app, <- (Hcov a). lia.
  - intros a w Hx. pose proof (Hend _ _ Hx). lia.
  - apply holes_ok_insert; [exact Hok|exact (Hgap Hne)|]. intros x w Hx. left. exact (Hend _ _ Hx).
  - intros a. rewrite owners_ains_absent by (destruct (aget p (holes s)) as [w|] eqn:E; [pose proof (Hend _ _ E); lia|reflexivity]).
    rewrite owners_app, owners_one, below_app. replace start with (p + (start - p)) at 3 by lia.
    rewrite below_app, <- (Hcov a). lia.
  - intros a w. rewrite aget_ains. destruct (N.eqb_spec a p) as [->|_]; [intros [= <-]; lia|].
    intros Hx. pose proof (Hend _ _ Hx). lia.
Qed.

(* B is any bound on the ends of the regions (at the call: the layout length of the closed state); L, the
   end of the last region passed, becomes the layout length of the reopened state *)
Lemma gaps_spec sl B t : forall p s R,
  asorted t ->
  (forall a i, In (a, i) t ->
     exists m, get sl i = Some (Some m) /\ r_start m = a /\ aligned (rext m) /\ a + r_reserved m <= B /\ p <= a) ->
  (forall a i a' i', In (a, i) t -> In (a', i') t -> a < a' -> a + rsv sl i <= a') ->
  gaps_inv (holes s) (h2s s) p R -> p <= B ->
  exists s1 L, gaps sl t p s = Some s1 /\ frame s1 = frame s
               /\ gaps_inv (holes s1) (h2s s1) L (R ++ vmap (rsv sl) t) /\ L <= B.
Proof.
  induction t as [|[start i] t IH]; intros p s R Hs Ht Hd HG HB; cbn [gaps].
  - exists s, p. cbn [vmap map]. rewrite app_nil_r. auto.
  - destruct (Ht start i (or_introl eq_refl)) as (m & Hm & Hst & Hal & Hend & Hle). rewrite Hm.
    destruct (N.ltb_spec start p) as [|_]; [lia|].
    apply asorted_cons in Hs. destruct Hs as [Hlb Hs]. unfold rext in Hal. rewrite Hst in Hal.
    destruct (gaps_inv_step s p R start (r_reserved m) HG Hle Hal) as [HG' Hf]. cbv zeta in HG', Hf.
    set (s2 := if p =? start then s else insert_hole s p (start - p)) in *.
    destruct (IH (start + r_reserved m) s2 (R ++ [(start, r_reserved m)]) Hs) as (s1 & L & E & Hf1 & G1 & HL);
      [| |exact HG'|exact Hend|].
    + intros a j HI. destruct (Ht a j (or_intror HI)) as (m' & Hm' & Hst' & Hal' & Hend' & _).
      exists m'. repeat (split; [assumption|]).
      pose proof (Hd start i a j (or_introl eq_refl) (or_intror HI) (Hlb _ _ HI)) as Hx.
      unfold rsv in Hx. now rewrite Hm in Hx.
    + intros a j a' j' HI HI'. apply (Hd a j a' j'); right; assumption.
    + exists s1, L. split; [exact E|]. split; [now rewrite Hf1|]. split; [|exact HL].
      rewrite <- app_assoc in G1. unfold vmap. cbn [map fst snd]. unfold rsv at 1. rewrite Hm. exact G1.
Qed.

Lemma reopen_s2r s :
  Inv s ->
  let sl := fill_slots (rfile s) in
  let g := s2r_of sl 0 [] in
  asorted g /\
  (forall a j, aget a g = Some j <-> exists m, get sl j = Some (Some m) /\ r_start m = a) /\
  (forall a, owners (vmap (rsv sl) g) a = owners (region_exts sl) a).
Proof.
  intros HI sl g.
  assert (Hinj : forall j j' m m', get sl j = Some (Some m) -> get sl j' = Some (Some m') -> r_start m = r_start m' -> j = j').
  { intros j j' m m' Hj Hj' Heq.
    destruct (fill_sub s _ _ HI Hj) as (mm & Hm & _ & ->), (fill_sub s _ _ HI Hj') as (mm' & Hm' & _ & ->).
    exact (region_start_inj s _ _ _ _ HI Hm Hm' Heq). }
  destruct (s2r_of_spec sl Hinj sl 0 []) as (R1 & R2 & R3);
    [intros n; unfold get; now rewrite N.add_0_l, Nat2N.id|reflexivity|exact I|].
  subst g. split; [exact R1|]. split; [|intros a; rewrite R3; reflexivity].
  intros a j. rewrite R2. split; [intros [[=]|[_ H]]; exact H|]. intros H. right. split; [apply N.le_0_l|exact H].
Qed.

(* in particular Layout::from does not underflow *)
Lemma reopen_shape s :
  Inv s ->
  let sl := fill_slots (rfile s) in
  exists H Q L,
    reopen s = AOk (mkSt sl (s2r_of sl 0 []) H Q [] [] (rfile s) (file_len s) (mem s) [], OUnit) /\
    holes_ok H Q /\
    (forall a, (owners H a + owners (region_exts sl) a)%nat = if a <? L then 1%nat else 0%nat) /\
    L <= layout_len s.
Proof.
  intros HI sl. destruct (reopen_s2r s HI) as (G1 & G2 & G3). cbv zeta in G1, G2, G3. fold sl in G1, G2, G3.
  unfold reopen. cbv zeta. fold sl. set (g := s2r_of sl 0 []) in *.
  set (s0 := mkSt sl [] [] [] [] [] (rfile s) (file_len s) (mem s) []).
  assert (Hg : forall a i, In (a, i) g ->
            exists mm, get sl i = Some (Some (clean mm)) /\ r_start mm = a /\ slot s i = Some mm).
  { intros a i HIn. apply (in_aget _ _ _ G1), G2 in HIn. destruct HIn as (m & Hm & Ha).
    destruct (fill_sub s _ _ HI Hm) as (mm & Hmm & _ & ->). eauto. }
  destruct (gaps_spec sl (layout_len s) g 0 s0 [] G1) as (s1 & L & -> & Hf & (Hok & Hcov & _) & HL);
    [| |exact gaps_inv_nil|apply N.le_0_l|].
  - intros a i HIn. destruct (Hg a i HIn) as (mm & Hm & <- & Hmm). exists (clean mm).
    split; [exact Hm|]. split; [reflexivity|]. split; [exact (inv_region_aligned s i mm HI Hmm)|].
    split; [exact (region_end_le s i mm HI Hmm)|apply N.le_0_l].
  - intros a i a' i' H1 H2. destruct (Hg a i H1) as (mm & Hm & <- & Hmm), (Hg a' i' H2) as (mm' & _ & <- & Hmm').
    unfold rsv. rewrite Hm. exact (regions_in_order s i i' mm mm' HI Hmm Hmm').
  - exists (holes s1), (h2s s1), L. split; [rewrite (frame_eq s0 s1 Hf) at 1; reflexivity|].
    split; [exact Hok|]. split; [|exact HL]. intros a. rewrite <- (Hcov a), G3. reflexivity.
Qed.

Lemma reopen_fields s s' r :
  Inv s -> reopen s = AOk (s', r) ->
  (forall i, slot s' i =
             match get (rfile s) i with
             | Some (Some (a, l, r, id)) => Some (mkR a l r id ST_CLEAN u64_max 0)
             | _ => None
             end) /\
  mem s' = mem s /\ rfile s' = rfile s /\ held s' = [] /\ file_len s' = file_len s /\
  pend s' = [] /\ resv s' = [] /\ r = OUnit.
Proof.
  intros HI Hre. destruct (reopen_shape s HI) as (H & Q & L & E & _). rewrite E in Hre. injection Hre as <- <-.
  split; [|repeat split]. intros i. unfold slot. cbn [slots]. rewrite (fill_get s i HI).
  destruct (get (rfile s) i) as [[[[[a l] r] id]|]|]; reflexivity.
Qed.

Lemma reopen_slot_sub s s' r i m' :
  Inv s -> reopen s = AOk (s', r) -> slot s' i = Some m' ->
  exists m, slot s i = Some m /\ (r_state m =? ST_WRITE) = false /\ m' = clean m.
Proof.
  intros HI Hre Hs. destruct (reopen_shape s HI) as (H & Q & L & E & _). rewrite E in Hre. injection Hre as <- _.
  apply slot_nth in Hs. exact (fill_sub s i m' HI Hs).
Qed.

Theorem inv_reopen : forall s s' r, Inv s -> reopen s = AOk (s', r) -> Inv s'.
Proof.
  intros s s' r HI Hre. destruct (reopen_shape s HI) as (H & Q & L & E & Hok & Hcov & HL).
  rewrite E in Hre. injection Hre as <- _.
  destruct (reopen_s2r s HI) as (G1 & G2 & _). cbv zeta in *.
  set (sl := fill_slots (rfile s)) in *. set (g := s2r_of sl 0 []) in *.
  match goal with |- Inv ?x => set (s' := x) end.
  assert (Hsub : forall i m', slot s' i = Some m' -> exists m, slot s i = Some m /\ m' = clean m).
  { intros i m' Hm. apply slot_nth in Hm. destruct (fill_sub s i m' HI Hm) as (m & H1 & _ & H2). eauto. }
  (* pend and resv of the reopened state are []: `I`, `Forall_nil`, `eq_refl` *)
  refine (proj1 (mk_inv_ok s' L ?[slots] Hok I (Forall_nil _) eq_refl ?[cover] G1 ?[s2r] ?[file] ?[ids] ?[rfile]));
    subst s'; st_simpl.
  [slots]: { intros i m' Hm. destruct (Hsub i m' Hm) as (m & Hs & ->). exact (inv_slot_ok s i m HI Hs). }
  [cover]: { intros a. rewrite owners_nil. specialize (Hcov a). lia. }
  [s2r]: { intros a j. rewrite (G2 a j). split; intros (m & Hm & Ha); exists m; (split; [|exact Ha]).
    + apply slot_nth. exact Hm.
    + apply slot_nth in Hm. exact Hm. }
  [file]: { pose proof (inv_file s HI). lia. }
  [ids]: { intros i j mi mj Hi Hj Heq. destruct (Hsub i mi Hi) as (mmi & Hmi & ->), (Hsub j mj Hj) as (mmj & Hmj & ->).
    exact (inv_ids s HI i j mmi mmj Hmi Hmj Heq). }
  [rfile]: { intros i. unfold slot. st_simpl. unfold sl. rewrite (fill_get s i HI).
    destruct (get (rfile s) i) as [[[[[a l] r0] id]|]|]; [reflexivity|left; reflexivity|right; reflexivity]. }
Qed.

Theorem reopen_no_panic : forall s, Inv s -> reopen s <> APanic.
Proof. intros s HI. destruct (reopen_shape s HI) as (H & Q & L & E & _). rewrite E. discriminate. Qed.

Corollary reopen_ok s : Inv s -> exists s', reopen s = AOk (s', OUnit) /\ Inv s'.
Proof.
  intros HI. destruct (reopen_shape s HI) as (H & Q & L & E & _). eexists. split; [exact E|].
  exact (inv_reopen _ _ _ HI E).
Qed.

(* the hypotheses are satisfiable *)
Example reopen_init min_len : exists s', reopen (init min_len) = AOk (s', OUnit) /\ Inv s'.
Proof. apply reopen_ok, inv_init. Qed.
