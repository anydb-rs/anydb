(* C01, one step, for the operations that add or drop table entries (Remove, Retain, Create,
   Reopen) and for Flush / Compact, which the reference state does not see (`flush_abs`,
   `compact_abs`).  Reopen needs the region names of `abs s` unique: `abs_wf`. *)
From Anydb Require Import Common.Base Gen.Consts Rawdb.Alloc Rawdb.AllocSpec Rawdb.AllocInv
  Rawdb.CoverFacts Rawdb.AllocErr
  Rawdb.CompactFacts Rawdb.InvReopen Rawdb.AllocRefine.
From Anydb Require Rawdb.InvBool.

Lemma refines_remove s id : Inv s -> refines_step s (Remove id).
Proof.
  intros HI. pose proof (inv_ids s HI) as Hu.
  eapply (refines_at s _ id); [reflexivity|reflexivity|intros i m Hs Hid Hst Hsp].
  cbv beta in Hst, Hsp. change (sp_is_held (abs s) id) with (is_held s id) in Hsp.
  destruct (is_held s id) eqn:Eh.
  - eapply refines_refused; [|exact Hsp].
    rewrite Hst. unfold remove_idx. now rewrite Hs, Hid, Eh.
  - rewrite <- Hid in Eh. rewrite (remove_idx_eq s i m (inv_s2r_ok s HI) Hs Eh) in Hst.
    eapply refines_ok; [exact HI|exact Hst|exact Hsp|intros Hu'].
    refine (spec_eq_sub s (removed s i m) (fun x _ => negb (x =? id)) _ _ Hu Hu' ?[table] ?[regions] (fun x => eq_refl)).
    [table]: { intros j. rewrite slot_removed. destruct (slot s j) as [mj|] eqn:Hj; [|now destruct (j =? i)].
      destruct (N.eqb_spec j i) as [->|Hne].
      * rewrite Hs in Hj. injection Hj as <-. now rewrite Hid, N.eqb_refl.
      * destruct (N.eqb_spec (r_id mj) id); [destruct Hne; apply (Hu j i mj m Hj Hs); congruence|].
        exists mj. repeat split. cbn [sview s_persisted]. rewrite rfile_has_removed. now destruct (N.eqb_spec j i). }
    [regions]: { intros x. rewrite sget_sdel. now destruct (x =? id), (sget x _). }
Qed.

Lemma retain_blocked_abs_from s keep l : forall i0,
  existsb (fun kv => negb (existsb (fun y => y =? fst kv) keep) && sp_is_held (abs s) (fst kv)) (abs_from s l i0)
  = existsb (fun o => match o with
                      | Some m => negb (existsb (fun x => x =? r_id m) keep) && is_held s (r_id m)
                      | None => false end) l.
Proof.
  induction l as [|[m|] t IH]; intros i0; cbn [abs_from existsb fst]; [reflexivity| |].
  - rewrite IH. reflexivity.
  - apply IH.
Qed.

Lemma retain_blocked_abs s keep :
  existsb (fun kv => negb (existsb (fun y => y =? fst kv) keep) && sp_is_held (abs s) (fst kv)) (sp_regions (abs s))
  = retain_blocked s keep.
Proof. apply retain_blocked_abs_from. Qed.

Lemma refines_retain s keep : Inv s -> refines_step s (Retain keep).
Proof.
  intros HI. pose proof (inv_ids s HI) as Hu.
  destruct (retain_blocked s keep) eqn:Eb.
  { eapply refines_refused; [cbn [step]; unfold retain; rewrite Eb; reflexivity|].
    cbn [spec_step]. rewrite retain_blocked_abs, Eb. reflexivity. }
  destruct (retain_from_ok s keep HI Eb) as (s1 & Hr & Hh & Hm & Hsl & Hrf).
  eapply refines_ok; [exact HI|cbn [step]; unfold retain; rewrite Eb, Hr; reflexivity|cbn [spec_step]; rewrite retain_blocked_abs, Eb; reflexivity|intros Hu'].
  refine (spec_eq_sub s _ (fun x _ => existsb (fun y => y =? x) keep) _ _ Hu Hu' ?[table] ?[regions] ?[handles]).
  [table]: { intros j. rewrite slot_set_held, Hsl. destruct (slot s j) as [mj|] eqn:Hj; cbn [kept]; [|reflexivity].
    destruct (existsb _ keep) eqn:Ek; [|reflexivity]. exists mj. repeat split; cbn [sview s_data s_persisted mem set_held].
    - intros k _. now rewrite Hm.
    - apply Hrf. rewrite Hsl, Hj. cbn [kept]. now rewrite Ek. }
  [regions]: { intros x. cbn [sp_regions abs]. change (abs_from s (slots s) 0) with (sp_regions (abs s)).
    rewrite (sget_filter_key (fun k => existsb (fun y => y =? k) keep)).
    now destruct (existsb _ keep), (sget x _). }
  [handles]: { intros x. unfold is_held. cbn [held set_held sp_held abs]. now rewrite Hh. }
Qed.

Theorem flush_abs s : Inv s -> spec_eq (abs (fst (flush s))) (abs s).
Proof.
  intros HI.
  refine (spec_eq_frame s _ (held s) (inv_ids s HI) (inv_ids _ (proj1 (InvFlush.inv_flush s HI))) (flush_slot s)
            ?[bytes] ?[flags] ?[handles]).
  [bytes]: { intros j m k _ _. now rewrite flush_eq. }
  [flags]: { intros j m _. unfold rfile_has. now rewrite flush_eq. }
  [handles]: { intros x. unfold is_held. now rewrite flush_eq. }
Qed.

(* C12, sequential part *)
Theorem compact_abs s : Inv s -> spec_eq (abs (fst (compact s))) (abs s).
Proof.
  intros HI. pose proof (inv_ids _ (proj1 (InvFlush.inv_flush s HI))) as Hu. eapply spec_eq_trans; [|exact (flush_abs s HI)].
  apply (spec_eq_frame (fst (flush s)) _ (held (fst (flush s))) Hu).
  - rewrite compact_fst. exact Hu.
  - intros j. rewrite compact_slot_flush. destruct (slot (fst (flush s)) j); [apply meta_eq_refl|exact I].
  - intros j m k Hj Hk. rewrite (compact_mem_live s HI j m k Hj Hk), flush_eq. reflexivity.
  - intros j m _. rewrite compact_fst. reflexivity.
  - intros x. rewrite compact_fst. reflexivity.
Qed.

Lemma refines_flush s : Inv s -> refines_step s Flush.
Proof.
  intros HI. unfold refines_step, step_total. cbn [step spec_step]. pose proof (flush_abs s HI) as H.
  destruct (flush s) as [s1 n]. cbn [fst snd res_agree] in *. auto.
Qed.

Lemma refines_compact s : Inv s -> refines_step s Compact.
Proof.
  intros HI. unfold refines_step, step_total. cbn [step spec_step]. pose proof (compact_abs s HI) as H.
  destruct (compact s) as [s1 n]. cbn [fst snd res_agree] in *. auto.
Qed.

Lemma keys_abs_from s l : forall i0, map fst (abs_from s l i0) = InvBool.live_ids l.
Proof.
  induction l as [|[m|] t IH]; intros i0; cbn [abs_from map fst InvBool.live_ids]; [reflexivity|f_equal|]; apply IH.
Qed.

Lemma abs_wf_ids s : ids_unique s -> NoDup (map fst (sp_regions (abs s))).
Proof.
  intros Hu. cbn [sp_regions abs]. rewrite keys_abs_from. now apply InvBool.ids_unique_nodup.
Qed.

Theorem abs_wf : forall s, Inv s -> NoDup (map fst (sp_regions (abs s))).
Proof. intros s HI. apply abs_wf_ids. exact (inv_ids s HI). Qed.

Lemma refines_step_reopen s : Inv s -> refines_step s Reopen.
Proof.
  intros HI. pose proof (inv_ids s HI) as Hu. destruct (reopen_ok s HI) as (s' & Er & _).
  destruct (reopen_fields s s' _ HI Er) as (Hsl & Hmem & Hrf & Hheld & _).
  eapply refines_ok; [exact HI|exact Er|reflexivity|intros Hu'].
  refine (spec_eq_sub s s' (fun _ v => s_persisted v) _ _ Hu Hu' ?[table] ?[regions] ?[handles]).
  [table]: { (* the table is read back from the regions file, which mirrors it: a slot comes back exactly
       when its record was written *)
    intros j. rewrite Hsl. pose proof (inv_rfile s HI j) as Hm. cbn [sview s_persisted]. unfold rfile_has.
    destruct (slot s j) as [m|].
    + destruct (r_state m =? ST_WRITE).
      * destruct Hm as (-> & _). reflexivity.
      * rewrite Hm. eexists. split; [reflexivity|]. unfold sview, rfile_has. rewrite Hmem, Hrf. repeat split.
    + destruct Hm as [-> | ->]; reflexivity. }
  [regions]: { intros x. apply (sget_filter_val s_persisted), abs_wf_ids, Hu. }
  [handles]: { intros x. unfold is_held. rewrite Hheld. reflexivity. }
Qed.

Lemma refines_create s id hold : Inv s -> refines_step s (Create id hold).
Proof.
  intros HI. pose proof (inv_ids s HI) as Hu.
  destruct (find_id s id) as [i|] eqn:Ef.
  - destruct (find_id_sget_some s id i Ef) as (m & _ & _ & Hg).
    eapply refines_ok; [exact HI|exact (create_found s id hold i Ef)|cbn [spec_step]; now rewrite Hg|intros Hu'].
    destruct hold; apply spec_eq_same; try reflexivity; assumption.
  - destruct (create_cases s id hold HI Ef) as (H & Q & fl & start & L' & _ & _ & _ & E).
    apply find_id_none_absent in Ef.
    eapply refines_ok; [exact HI|exact E|cbn [spec_step]; now rewrite (sget_abs_absent s id Ef)|intros Hu'].
    set (sb := relaid s H Q fl). set (i := first_free (slots s) 0).
    refine (spec_eq_set s _ i None (mkR start NEW_REGION_LEN NEW_REGION_RESERVED id ST_WRITE u64_max 0)
              (mkS 0 (fun _ => 0) false) _ _ Hu Hu' (slot_first_free s) ?[regions] ?[handles]
              (slot_created sb i start id hold) ?[others] ?[view]).
    [regions]: { intros x. now rewrite sget_sput. }
    [handles]: { intros x. unfold is_held. rewrite held_created. now destruct hold. }
    [others]: { intros j mj _ _. unfold sview. rewrite rfile_has_created. apply sreg_eq_refl. }
    [view]: { unfold sview, sreg_eq. cbn [s_len s_data s_persisted r_len]. split; [reflexivity|]. split.
      * intros k Hk. rewrite NEW_LEN_0 in Hk. lia.
      * rewrite rfile_has_created. apply mirrors_none; [exact (inv_rfile s HI)|apply slot_first_free]. }
Qed.
