(* What `abs s` holds under a region name is read off the slot function alone (`sget_abs`), so
   `spec_eq (abs s') X` is shown name by name from the slots of s' (`spec_eq_by_slots`); over it
   two builders cover every operation: `spec_eq_sub` (some regions survive untouched) and
   `spec_eq_set` (one slot is set).  A kept slot is one whose view `sview` is `sreg_eq` to what it
   was; `spec_eq_frame` takes it as `CompactFacts.slot_kept`.  That the names of s' are unique is a
   premise: s' is the result of a step, which keeps Inv (`refines_ok`). *)
From Anydb Require Import Common.Base Rawdb.Alloc Rawdb.AllocSpec Rawdb.AllocInv
  Rawdb.CoverFacts Rawdb.InvLayout Rawdb.AllocErr Rawdb.CompactFacts Rawdb.InvRun.
From Anydb Require Export Rawdb.SpecFacts.

(* the one-step refinement statement of C01 *)
Definition refines_step (s : st) (o : op) : Prop :=
  spec_eq (abs (fst (step_total s o))) (fst (spec_step (abs s) o))
  /\ res_agree (snd (step_total s o)) (snd (spec_step (abs s) o)).

Lemma spec_eq_sym a b : spec_eq a b -> spec_eq b a.
Proof. exact (CompactFacts.spec_eq_sym a b). Qed.

Definition sview (s : st) (i : N) (m : rmeta) : sreg :=
  mkS (r_len m) (fun k => mem s (r_start m + k)) (rfile_has s i).

Definition lives (s : st) (id i : N) (m : rmeta) : Prop := slot s i = Some m /\ r_id m = id.
Definition absent (s : st) (id : N) : Prop := forall i m, slot s i = Some m -> r_id m <> id.

Lemma sget_abs_from s l id : forall i0,
  sget id (abs_from s l i0) =
  match find_id_from l id i0 with
  | Some j => match nth_opt l (N.to_nat (j - i0)) with
              | Some (Some m) => Some (sview s j m)
              | _ => None
              end
  | None => None
  end.
Proof.
  induction l as [|[m|] t IH]; intros i0; cbn [abs_from find_id_from sget]; [reflexivity| |].
  - destruct (r_id m =? id) eqn:E.
    + replace (N.to_nat (i0 - i0)) with O by lia. reflexivity.
    + rewrite IH. destruct (find_id_from t id (i0 + 1)) as [j|] eqn:Ef; [|reflexivity].
      apply find_id_from_some in Ef. destruct Ef as (_ & _ & _ & Hle).
      replace (N.to_nat (j - i0)) with (S (N.to_nat (j - (i0 + 1)))) by lia. reflexivity.
  - rewrite IH. destruct (find_id_from t id (i0 + 1)) as [j|] eqn:Ef; [|reflexivity].
    apply find_id_from_some in Ef. destruct Ef as (_ & _ & _ & Hle).
    replace (N.to_nat (j - i0)) with (S (N.to_nat (j - (i0 + 1)))) by lia. reflexivity.
Qed.

(* the abstraction of a name depends on the slot FUNCTION only (through find_id) *)
Lemma sget_abs s id :
  sget id (sp_regions (abs s)) =
  match find_id s id with
  | Some i => match slot s i with Some m => Some (sview s i m) | None => None end
  | None => None
  end.
Proof.
  unfold abs, find_id. cbn [sp_regions]. rewrite sget_abs_from.
  destruct (find_id_from (slots s) id 0) as [j|]; [|reflexivity].
  unfold slot, get. rewrite N.sub_0_r. destruct (nth_opt (slots s) (N.to_nat j)) as [[m|]|]; reflexivity.
Qed.

Lemma find_id_none_absent s id : find_id s id = None <-> absent s id.
Proof.
  split.
  - intros H i m Hs. eapply find_id_none; eauto.
  - intros H. destruct (find_id s id) as [i|] eqn:E; [|reflexivity].
    apply find_id_some in E. destruct E as (m & Hs & Hid). exfalso. exact (H i m Hs Hid).
Qed.

Lemma find_id_lives s id i m : ids_unique s -> lives s id i m -> find_id s id = Some i.
Proof.
  intros Hu [Hs Hid]. destruct (find_id s id) as [j|] eqn:E.
  - apply find_id_some in E. destruct E as (m' & Hs' & Hid'). f_equal. eapply Hu; eauto. congruence.
  - exfalso. apply find_id_none_absent in E. exact (E i m Hs Hid).
Qed.

Lemma lives_or_absent s id : (exists i m, lives s id i m) \/ absent s id.
Proof.
  destruct (find_id s id) as [i|] eqn:E.
  - left. apply find_id_some in E. destruct E as (m & Hs & Hid). exists i, m. split; assumption.
  - right. now apply find_id_none_absent.
Qed.

Lemma sget_abs_lives s id i m :
  ids_unique s -> lives s id i m -> sget id (sp_regions (abs s)) = Some (sview s i m).
Proof.
  intros Hu Hl. rewrite sget_abs, (find_id_lives s id i m Hu Hl). destruct Hl as [-> _]. reflexivity.
Qed.

Lemma sget_abs_absent s id : absent s id -> sget id (sp_regions (abs s)) = None.
Proof. intros H. rewrite sget_abs. apply find_id_none_absent in H. now rewrite H. Qed.

Lemma find_id_sget_some s id i :
  find_id s id = Some i -> exists m, slot s i = Some m /\ r_id m = id /\ sget id (sp_regions (abs s)) = Some (sview s i m).
Proof.
  intros H. destruct (find_id_some s id i H) as (m & Hs & Hid). exists m. rewrite sget_abs, H, Hs. auto.
Qed.

Lemma with_region_view s id k :
  (exists i m, slot s i = Some m /\ r_id m = id /\ sget id (sp_regions (abs s)) = Some (sview s i m)
               /\ with_region s id k = k i)
  \/ (sget id (sp_regions (abs s)) = None /\ with_region s id k = AErr s RegionNotFound).
Proof.
  rewrite sget_abs. destruct (with_region_cases s id k) as [(i & m & -> & Hs & Hid & E)|(-> & E)]; [left|auto].
  exists i, m. now rewrite Hs.
Qed.

Lemma meta_eq_fin m : meta_eq m (fin m).
Proof. unfold fin. destruct (r_state m =? ST_WRITE); [apply meta_eq_state|apply meta_eq_refl]. Qed.

Lemma rfile_upd s i f : rfile (upd s i f) = rfile s.
Proof. unfold upd. destruct (slot s i); reflexivity. Qed.
Lemma rfile_has_upd s i f j : rfile_has (upd s i f) j = rfile_has s j.
Proof. unfold rfile_has. now rewrite rfile_upd. Qed.

Lemma spec_eq_by_slots s' R hl :
  ids_unique s' ->
  (forall id, match sget id R with
              | Some v => exists i m, lives s' id i m /\ sreg_eq (sview s' i m) v
              | None => absent s' id
              end) ->
  (forall x, is_held s' x = existsb (fun y => y =? x) hl) ->
  spec_eq (abs s') (mkSpec R hl).
Proof.
  intros Hu HR HH. split; [|exact HH]. intros id. cbn [sp_regions]. specialize (HR id).
  destruct (sget id R) as [v|].
  - destruct HR as (i & m & Hl & He). rewrite (sget_abs_lives s' id i m Hu Hl). exact He.
  - rewrite (sget_abs_absent s' id HR). exact I.
Qed.

(* the regions whose name and reference entry satisfy p survive, each in its slot and showing the
   reference what it showed *)
Lemma spec_eq_sub s s' (p : N -> sreg -> bool) R hl :
  ids_unique s -> ids_unique s' ->
  (forall j, match slot s j with
             | Some m => if p (r_id m) (sview s j m)
                         then exists m', slot s' j = Some m' /\ r_id m' = r_id m /\ sreg_eq (sview s' j m') (sview s j m)
                         else slot s' j = None
             | None => slot s' j = None
             end) ->
  (forall x, sget x R = match sget x (sp_regions (abs s)) with Some v => if p x v then Some v else None | None => None end) ->
  (forall x, is_held s' x = existsb (fun y => y =? x) hl) ->
  spec_eq (abs s') (mkSpec R hl).
Proof.
  intros Hu Hu' Hsl HR HH.
  assert (Hback : forall j m', slot s' j = Some m' -> exists m, slot s j = Some m /\ r_id m' = r_id m).
  { intros j m' Hj. specialize (Hsl j). destruct (slot s j) as [m|] eqn:Ej; [|congruence].
    destruct (p _ _); [|congruence]. destruct Hsl as (m'' & H1 & H2 & _). exists m. rewrite H1 in Hj. inversion Hj; subst. auto. }
  apply spec_eq_by_slots; auto.
  intros x. rewrite HR. destruct (lives_or_absent s x) as [(i & m & Hl)|Ha].
  - rewrite (sget_abs_lives s x i m Hu Hl). destruct Hl as [Hs <-]. pose proof (Hsl i) as Hi. rewrite Hs in Hi.
    destruct (p (r_id m) (sview s i m)).
    + destruct Hi as (m' & Hs' & Hid & Hv). exists i, m'. split; [split; assumption|exact Hv].
    + intros j m' Hj Hx. destruct (Hback j m' Hj) as (mj & Hj0 & Hidj).
      assert (j = i) by (apply (Hu j i mj m Hj0 Hs); congruence). subst j. congruence.
  - rewrite (sget_abs_absent s x Ha). intros j m' Hj. destruct (Hback j m' Hj) as (mj & Hj0 & Hidj).
    rewrite Hidj. exact (Ha j mj Hj0).
Qed.

Lemma spec_eq_frame s s' hl :
  ids_unique s -> ids_unique s' ->
  (forall j, slot_kept (slot s j) (slot s' j)) ->
  (forall j m k, slot s j = Some m -> k < r_len m -> mem s' (r_start m + k) = mem s (r_start m + k)) ->
  (forall j m, slot s j = Some m -> rfile_has s' j = rfile_has s j) ->
  (forall x, is_held s' x = existsb (fun y => y =? x) hl) ->
  spec_eq (abs s') (mkSpec (sp_regions (abs s)) hl).
Proof.
  intros Hu Hu' Hsl Hmem Hrf HH. refine (spec_eq_sub s s' (fun _ _ => true) _ hl Hu Hu' ?[table] ?[regions] HH).
  [table]: { intros j. specialize (Hsl j). unfold slot_kept in Hsl.
    destruct (slot s j) as [m|] eqn:Hj, (slot s' j) as [m'|]; try contradiction; [|reflexivity].
    destruct Hsl as (H1 & H2 & _ & H3). exists m'. split; [reflexivity|]. split; [exact H3|].
    split; [exact H2|]. split; [|exact (Hrf j m Hj)].
    cbn [sview s_len s_data]. intros k Hk. rewrite H1. apply (Hmem j m k Hj). now rewrite <- H2. }
  [regions]: { intros x. now destruct (sget x _). }
Qed.

Lemma spec_eq_same s s' hl :
  ids_unique s -> ids_unique s' -> (forall j, slot s' j = slot s j) -> (forall a, mem s' a = mem s a) ->
  (forall j, rfile_has s' j = rfile_has s j) ->
  (forall x, is_held s' x = existsb (fun y => y =? x) hl) ->
  spec_eq (abs s') (mkSpec (sp_regions (abs s)) hl).
Proof.
  intros Hu Hu' Hsl Hm Hr HH. apply spec_eq_frame; auto.
  intros j. rewrite Hsl. destruct (slot s j); [apply meta_eq_refl|exact I].
Qed.

Lemma spec_eq_upd_same s i g :
  ids_unique s -> ids_unique (upd s i g) -> (forall m, meta_eq m (g m)) -> spec_eq (abs (upd s i g)) (abs s).
Proof.
  intros Hu Hu' Hg.
  refine (spec_eq_frame s _ (held s) Hu Hu' ?[table] ?[bytes] (fun j m _ => rfile_has_upd s i g j) ?[handles]).
  [table]: { intros j. rewrite slot_upd. destruct (j =? i) eqn:E.
    + apply N.eqb_eq in E. subst. destruct (slot s i); cbn [option_map slot_kept]; [apply Hg|exact I].
    + destruct (slot s j); [apply meta_eq_refl|exact I]. }
  [bytes]: { intros j m k _ _. now rewrite mem_upd. }
  [handles]: { intros x. unfold is_held. now rewrite held_upd. }
Qed.

Lemma spec_eq_sput_same s id i m v :
  ids_unique s -> lives s id i m -> sreg_eq (sview s i m) v ->
  spec_eq (abs s) (mkSpec (sput id v (sp_regions (abs s))) (held s)).
Proof.
  intros Hu Hl Hv. split; [|reflexivity]. intros x. cbn [sp_regions]. rewrite sget_sput.
  destruct (N.eqb_spec x id) as [->|]; [now rewrite (sget_abs_lives s id i m Hu Hl)|].
  destruct (sget x (sp_regions (abs s))); [apply sreg_eq_refl|exact I].
Qed.

(* slot i, which held o, is set to m', possibly under a new name *)
Lemma spec_eq_set s s' i o m' v R hl :
  ids_unique s -> ids_unique s' -> slot s i = o ->
  (forall x, sget x R = if x =? r_id m' then Some v
                        else if match o with Some m => x =? r_id m | None => false end then None
                        else sget x (sp_regions (abs s))) ->
  (forall x, is_held s' x = existsb (fun y => y =? x) hl) ->
  (forall j, slot s' j = if j =? i then Some m' else slot s j) ->
  (forall j mj, j <> i -> slot s j = Some mj -> sreg_eq (sview s' j mj) (sview s j mj)) ->
  sreg_eq (sview s' i m') v ->
  spec_eq (abs s') (mkSpec R hl).
Proof.
  intros Hu Hu' Hs HR HH Hsl Hoth Hv.
  apply spec_eq_by_slots; [exact Hu'|intros x; rewrite HR|exact HH].
  (* x is the name set; or it named slot i of s and is gone, named another slot of s and is
     carried over, or named none *)
  destruct (N.eqb_spec x (r_id m')) as [->|E1].
  { exists i, m'. split; [|exact Hv]. split; [now rewrite Hsl, N.eqb_refl|reflexivity]. }
  assert (Hother : forall j mj, slot s' j = Some mj -> r_id mj = x -> j <> i /\ slot s j = Some mj).
  { intros j mj. rewrite Hsl. destruct (N.eqb_spec j i); [intros [= <-]; congruence|auto]. }
  destruct (lives_or_absent s x) as [(j & mj & Hj & Hx)|Ha].
  - destruct (N.eqb_spec j i) as [->|Hne].
    + rewrite <- Hs, Hj, Hx, N.eqb_refl. intros j' mj' Hj' E. destruct (Hother j' mj' Hj' E) as [Hne' Hj0].
      apply Hne'. apply (Hu j' i mj' mj Hj0 Hj). congruence.
    + replace (match o with Some m => x =? r_id m | None => false end) with false.
      2:{ destruct o as [m|]; [|reflexivity]. destruct (N.eqb_spec x (r_id m)); [|reflexivity].
          destruct Hne. apply (Hu j i mj m Hj Hs). congruence. }
      rewrite (sget_abs_lives s x j mj Hu (conj Hj Hx)).
      exists j, mj. split; [|exact (Hoth j mj Hne Hj)].
      split; [|exact Hx]. rewrite Hsl. destruct (N.eqb_spec j i); [contradiction|exact Hj].
  - replace (if match o with Some m => x =? r_id m | None => false end then None else sget x (sp_regions (abs s)))
      with (@None sreg) by (rewrite (sget_abs_absent s x Ha); now destruct (match o with Some m => x =? r_id m | None => false end)).
    intros j mj Hj' E. destruct (Hother j mj Hj' E) as [_ Hj0]. exact (Ha j mj Hj0 E).
Qed.

Lemma spec_eq_wput s i m x v R hl :
  ids_unique s -> ids_unique (wput s i x) -> slot s i = Some m ->
  (forall y, sget y R = if y =? r_id x then Some v else if y =? r_id m then None else sget y (sp_regions (abs s))) ->
  (forall y, is_held s y = existsb (fun z => z =? y) hl) ->
  sreg_eq (sview (wput s i x) i (fin x)) v ->
  spec_eq (abs (wput s i x)) (mkSpec R hl).
Proof.
  intros Hu Hu' Hs HR HH Hv. destruct (meta_eq_fin x) as (_ & _ & _ & F).
  refine (spec_eq_set s _ i (Some m) (fin x) v R hl Hu Hu' Hs ?[regions] ?[handles] (slot_wput s i x) ?[others] Hv).
  [regions]: { intros y. rewrite F. apply HR. }
  [handles]: { intros y. unfold is_held. rewrite held_wput. apply HH. }
  [others]: { intros j mj Hne _. split; [reflexivity|]. split; [intros k _; cbn [sview s_data]; now rewrite mem_wput|].
    cbn [sview s_persisted]. rewrite rfile_has_wput. now destruct (N.eqb_spec j i). }
Qed.

Lemma spec_eq_set_held s h R hl0 hl :
  spec_eq (abs s) (mkSpec R hl0) ->
  (forall y, existsb (fun z => z =? y) h = existsb (fun z => z =? y) hl) ->
  spec_eq (abs (set_held s h)) (mkSpec R hl).
Proof.
  intros [Hr _] Hh. split; [|exact Hh]. intros id. specialize (Hr id). rewrite sget_abs in *. exact Hr.
Qed.

(* The persistence flag of the abstraction is "slot i of the regions file is written"; the
   reference sets its flag when the length changes or the region is renamed (AllocSpec.s_write,
   spec_step).  They agree because write_if_dirty writes a slot exactly in state NEEDS_WRITE, which
   a setter enters exactly when its value changes (start and reserve change only in a write that
   also changes the length): `rfile_mirrors` with `rfile_has_wput`. *)
Lemma mirrors_has s i m :
  rfile_mirrors s -> slot s i = Some m -> rfile_has s i = negb (r_state m =? ST_WRITE).
Proof.
  intros Hm Hs. specialize (Hm i). rewrite Hs in Hm. unfold rfile_has.
  destruct (r_state m =? ST_WRITE); [destruct Hm as (-> & _)|rewrite Hm]; reflexivity.
Qed.

Lemma mirrors_write_len0 s i m :
  rfile_mirrors s -> slot s i = Some m -> r_state m = ST_WRITE -> r_len m = 0.
Proof.
  intros Hm Hs Hst. specialize (Hm i). rewrite Hs, Hst, N.eqb_refl in Hm. tauto.
Qed.

Lemma mirrors_none s i : rfile_mirrors s -> slot s i = None -> rfile_has s i = false.
Proof.
  intros Hm Hs. specialize (Hm i). rewrite Hs in Hm. unfold rfile_has. destruct Hm as [-> | ->]; reflexivity.
Qed.

Lemma m_set_reserved_state m v :
  r_state (m_set_reserved m v) = if r_reserved m =? v then r_state m else ST_WRITE.
Proof. unfold m_set_reserved. destruct (r_reserved m =? v); reflexivity. Qed.

Lemma m_set_start_state m v :
  r_state (m_set_start m v) = if r_start m =? v then r_state m else ST_WRITE.
Proof. unfold m_set_start. destruct (r_start m =? v); reflexivity. Qed.

Lemma is_held_eq s s' : held s' = held s -> forall x, is_held s' x = is_held s x.
Proof. intros E x. unfold is_held. now rewrite E. Qed.

(* the table of the next state has unique names because the step keeps Inv (InvRun.inv_step) *)
Lemma refines_ok s o s' r sp' r' :
  Inv s -> step s o = AOk (s', r) -> spec_step (abs s) o = (sp', Ok r') ->
  (ids_unique s' -> spec_eq (abs s') sp') -> refines_step s o.
Proof.
  intros HI H1 H2 H3. pose proof (inv_ids _ (inv_step s o HI)) as Hu'. unfold refines_step, step_total in *.
  rewrite H1 in *. rewrite H2. cbn [fst snd res_agree] in *. auto.
Qed.
Lemma refines_err s o s' e sp' :
  Inv s -> step s o = AErr s' e -> spec_step (abs s) o = (sp', Err e) ->
  (ids_unique s' -> spec_eq (abs s') sp') -> refines_step s o.
Proof.
  intros HI H1 H2 H3. pose proof (inv_ids _ (inv_step s o HI)) as Hu'. unfold refines_step, step_total in *.
  rewrite H1 in *. rewrite H2. cbn [fst snd res_agree] in *. auto.
Qed.

Lemma refines_refused s o e :
  step s o = AErr s e -> spec_step (abs s) o = (abs s, Err e) -> refines_step s o.
Proof.
  intros H1 H2. unfold refines_step, step_total. rewrite H1, H2. split; [apply spec_eq_refl|reflexivity].
Qed.

(* the first two premises hold by `reflexivity` for every operation addressed at a name: `step`
   unfolds to `with_region`, `spec_step` to `sp_with` *)
Lemma refines_at s o id k ks :
  step s o = with_region s id k -> spec_step (abs s) o = sp_with (abs s) id ks ->
  (forall i m, slot s i = Some m -> r_id m = id ->
               step s o = k i -> spec_step (abs s) o = ks (sview s i m) -> refines_step s o) ->
  refines_step s o.
Proof.
  intros Hst Hsp Hk. unfold sp_with in Hsp.
  destruct (with_region_view s id k) as [(i & m & Hs & Hid & Hg & E)|(Hg & E)]; rewrite E in Hst; rewrite Hg in Hsp.
  - exact (Hk i m Hs Hid Hst Hsp).
  - exact (refines_refused s o _ Hst Hsp).
Qed.
