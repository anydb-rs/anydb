(* Rawdb/InvOps.v — `post`, the one postcondition of a call; `inv_put`, Inv of a successor state in
   which one slot changed, over `mk_inv_ok`. *)
From Anydb Require Import Common.Base Gen.Consts Rawdb.AMap Rawdb.Alloc Rawdb.AllocInv
  Rawdb.AMapFacts Rawdb.CoverFacts Rawdb.InvLayout Rawdb.HolesFacts Rawdb.AllocErr.

Lemma inv_set_file_len s fl : file_len s <= fl -> Inv s -> Inv (set_file_len s fl) /\ layout_len (set_file_len s fl) = layout_len s.
Proof.
  intros Hle H. split; [|reflexivity]. destruct H. constructor; try assumption.
  change (layout_len s <= fl). lia.
Qed.

Lemma inv_set_min_len s n : Inv s -> Inv (set_min_len s n) /\ layout_len (set_min_len s n) = layout_len s.
Proof.
  intros H. destruct (set_min_len_shape s n) as (fl & -> & Hle). now apply inv_set_file_len.
Qed.

(* the reuse clause of C02 for one step *)
Definition reuse_ok (s s' : st) : Prop :=
  forall j mj', placed s s' j -> slot s' j = Some mj' -> has_hole_for s (r_reserved mj') -> layout_len s' = layout_len s.

Lemma reuse_ok_same_len s s' : layout_len s' = layout_len s -> reuse_ok s s'.
Proof. intros H j mj' _ _ _. exact H. Qed.

Lemma reuse_ok_no_move s s' :
  (forall j mj', slot s' j = Some mj' -> exists mj, slot s j = Some mj /\ r_start mj = r_start mj') -> reuse_ok s s'.
Proof.
  intros H j mj' Hp Hj _. exfalso. unfold placed in Hp. rewrite Hj in Hp.
  destruct (H j mj' Hj) as (mj & Hs & He). rewrite Hs in Hp. auto.
Qed.

Lemma reuse_ok_placed s s' i x p :
  Inv s -> (forall j, slot s' j = if j =? i then Some x else slot s j) -> r_reserved x = p ->
  layout_len s' = layout_len s \/ find_hole s p = None -> reuse_ok s s'.
Proof.
  intros HI Hsl Hx HL j mj' Hp Hj Hh. unfold placed in Hp. rewrite Hsl in Hp, Hj. destruct (j =? i).
  - injection Hj as <-. rewrite Hx in Hh. destruct HL as [HL|Hn]; [exact HL|].
    exfalso. exact (find_hole_complete s p HI Hh Hn).
  - exfalso. rewrite Hj in Hp. auto.
Qed.

(* One form for every call and for the step.  A refused request returns the state it was given, except
   Region::flush's RegionMetadataUnwritten, which has cleared the dirty bounds and still leaves Inv.  P is
   what a panic implies: False for the calls that never panic, True where the lemma does not say, and for
   the step the size bound that was exceeded. *)
Definition post (P : Prop) (s : st) (x : ares (st * out)) : Prop :=
  match x with
  | AOk (s', _) => Inv s' /\ reuse_ok s s'
  | AErr s' e => Inv s' /\ (e <> RegionMetadataUnwritten -> s' = s)
  | APanic => P
  end.

Lemma post_len P s s' r : Inv s' /\ layout_len s' = layout_len s -> post P s (AOk (s', r)).
Proof. intros [H1 H2]. split; [exact H1|now apply reuse_ok_same_len]. Qed.

Lemma post_same P s e : Inv s -> post P s (AErr s e).
Proof. intros HI. split; [exact HI|reflexivity]. Qed.

Lemma post_panic (P Q : Prop) s x : post P s x -> (x = APanic -> Q) -> post Q s x.
Proof. destruct x as [[s' r]|s' e|]; cbn [post]; auto. Qed.

Lemma owners_put_slot s i x a :
  (owners (region_exts (set_at (slots s) (N.to_nat i) x None)) a + oext (slot s i) a
   = owners (region_exts (slots s)) a + oext x a)%nat.
Proof. exact (owners_region_set (slots s) (N.to_nat i) x a). Qed.

(* The premises are the clauses of AllocInv.Inv, grouped by what a call changes: the live slots, the two hole maps
   (`holes_ok`), the pending holes, the cover with a length L of the caller's choice, start_to_region, the files.
   A new clause is a new premise here and in the builders that end here: inv_put -> inv_table_step (inv_wid_upd,
   inv_upd_keep), InvWrite.rewritten_inv (in_place_inv, moved_inv), InvCreate.created_inv, InvRemove.removed_inv;
   InvFlush.inv_map_slots, inv_promote and InvReopen.inv_reopen call mk_inv_ok themselves.  It is also entered in
   AllocFacts.inv_init and in the checker: InvBool.inv_clauses, inv_b, inv_b_iff.  The lemmas that copy Inv field by
   field (InvFacts.inv_set_held, inv_set_file_len, inv_set_mem, inv_set_min_regions) follow by themselves when the
   clause does not read the field they change. *)
Lemma mk_inv_ok s L :
  (forall j mj, slot s j = Some mj ->
     aligned (rext mj) /\ r_len mj <= r_reserved mj /\ r_reserved mj <= MAX_RESERVED_SIZE) ->
  holes_ok (holes s) (h2s s) -> asorted (pend s) -> Forall aligned (pend s) -> resv s = [] ->
  (forall a, (owners (region_exts (slots s)) a + owners (holes s) a + owners (pend s) a)%nat
             = if a <? L then 1%nat else 0%nat) ->
  asorted (s2r s) ->
  (forall a i, aget a (s2r s) = Some i <-> exists m, slot s i = Some m /\ r_start m = a) ->
  L <= file_len s -> ids_unique s -> rfile_mirrors s ->
  Inv s /\ layout_len s = L.
Proof.
  intros Hsl Hok S3 Ap Ev Hcov S1 Hmap Hfile Hids Hrf.
  pose proof (holes_ok_sorted Hok) as W1. pose proof (holes_ok_sorted_sizes Hok) as W2.
  assert (Hal : Forall aligned (extents s)).
  { unfold extents. rewrite Ev.
    repeat (apply Forall_app; split); [|exact (Forall_amap _ _ (fun x v => holes_ok_aligned Hok) W1)|exact Ap|constructor].
    apply Forall_forall. intros e HI. apply in_region_exts_slot in HI. destruct HI as (j & mj & Hj & ->).
    apply (Hsl j mj Hj). }
  assert (Hc : forall a, owners (extents s) a = if a <? L then 1%nat else 0%nat).
  { intros a. rewrite owners_extents, Ev, owners_nil, <- (Hcov a). lia. }
  (* the code's layout_len is the L of the cover; the clauses that mention layout_len are then read at L *)
  assert (HL : layout_len s = L).
  { apply layout_len_of_cover; auto; [now rewrite Ev|].
    intros e HI. rewrite Forall_forall in Hal. apply (Hal e HI). }
  split; [|exact HL]. rewrite <- HL in Hc, Hfile.
  refine (mkInv s Hal Hc ?[len] Hmap ?[sorted] (holes_ok_agrees Hok) ?[noadj] Hfile Hids Hrf Ev).
  [len]: { intros j mj Hj. apply (Hsl j mj Hj). }
  [sorted]: { rewrite Ev. repeat split; assumption. }
  [noadj]: { intros a z a' z'. now apply (holes_ok_noadj _ _ _ _ _ _ Hok). }
Qed.

Lemma ids_put s s' i om :
  ids_unique s ->
  (forall j, slot s' j = if j =? i then om else slot s j) ->
  match om with
  | Some m' => (exists m, slot s i = Some m /\ r_id m' = r_id m) \/ find_id s (r_id m') = None
  | None => True
  end ->
  ids_unique s'.
Proof.
  intros Hu Hsl Hid j1 j2 m1 m2. rewrite !Hsl.
  destruct (j1 =? i) eqn:E1; destruct (j2 =? i) eqn:E2; intros H1 H2 Heq.
  - lia.
  - subst om. destruct Hid as [(m & Hm & Hid)|Hn].
    + assert (i = j2) by (eapply Hu; eauto; congruence). lia.
    + exfalso. eapply find_id_none; eauto.
  - subst om. destruct Hid as [(m & Hm & Hid)|Hn].
    + assert (j1 = i) by (eapply Hu; eauto; congruence). lia.
    + exfalso. eapply find_id_none; eauto.
  - eapply Hu; eauto.
Qed.

Lemma mirrors_gen s s' i om :
  rfile_mirrors s ->
  (forall j, slot s' j = if j =? i then om else slot s j) ->
  (forall j, j <> i -> get (rfile s') j = get (rfile s) j \/ (get (rfile s) j = None /\ get (rfile s') j = Some None)) ->
  mirrors1 om (get (rfile s') i) ->
  rfile_mirrors s'.
Proof.
  intros Hm Hsl Hrf Hi j. rewrite Hsl. destruct (N.eqb_spec j i) as [->|Hne]; [exact Hi|].
  exact (mirrors1_grow _ _ _ (Hm j) (Hrf j Hne)).
Qed.

Definition setter_like (m x : rmeta) : Prop := x = m \/ r_state x = ST_WRITE.

Lemma mirrors_wid_put s s' i m x :
  rfile_mirrors s -> slot s i = Some m ->
  (r_state x <> ST_WRITE -> r_state m <> ST_WRITE /\ srec x = srec m) ->
  (forall j, slot s' j = if j =? i then Some (fin x) else slot s j) ->
  rfile s' = (if r_state x =? ST_WRITE then set_at (rfile s) (N.to_nat i) (Some (srec x)) None else rfile s) ->
  rfile_mirrors s'.
Proof.
  intros Hm Hs Hx Hsl Hrf. apply (mirrors_gen s s' i (Some (fin x))); auto.
  - intros j Hne. rewrite Hrf. destruct (r_state x =? ST_WRITE); [now apply get_set_at_other|left; reflexivity].
  - cbn [mirrors1]. rewrite fin_state, fin_srec, Hrf. destruct (r_state x =? ST_WRITE) eqn:E.
    + apply get_set_at_same.
    + destruct Hx as [Hx1 Hx2]; [lia|]. specialize (Hm i). rewrite Hs in Hm.
      destruct (r_state m =? ST_WRITE) eqn:E2; [lia|]. rewrite Hx2. exact Hm.
Qed.

(* `s2r_put` and `inv_put` read a step in which slot i goes from `slot s i` to `om`: start_to_region
   drops the old start and enters the new one; holes, pending holes and the file are whatever the
   operation made them.  What remains to show in `inv_put` is local to slot i, plus the cover equation. *)
Definition starts (o : option rmeta) (a : N) : bool :=
  match o with Some m => a =? r_start m | None => false end.

Lemma s2r_put s i om q :
  Inv s ->
  (forall a, aget a q = if starts om a then Some i else if starts (slot s i) a then None else aget a (s2r s)) ->
  (forall x j, om = Some x -> aget (r_start x) (s2r s) = Some j -> j = i) ->
  forall a j, aget a q = Some j <-> exists mj, (if j =? i then om else slot s j) = Some mj /\ r_start mj = a.
Proof.
  intros HI Hq Hfresh a j. rewrite Hq. pose proof (inv_s2r s HI) as Hm.
  destruct (starts om a) eqn:Eo.
  - destruct om as [x|]; [|discriminate]. apply N.eqb_eq in Eo. subst a. split.
    + intros [= <-]. rewrite N.eqb_refl. eauto.
    + intros (mj & Hj & Hst). f_equal. destruct (N.eqb_spec j i) as [->|_]; [reflexivity|].
      symmetry. apply (Hfresh x j eq_refl), Hm. eauto.
  - assert (Hno : forall mj, om = Some mj -> r_start mj <> a).
    { intros mj ->. cbn [starts] in Eo. lia. }
    destruct (starts (slot s i) a) eqn:Ei.
    + destruct (slot s i) as [m|] eqn:Hs; [|discriminate]. apply N.eqb_eq in Ei. subst a.
      split; [discriminate|]. intros (mj & Hj & Hst). exfalso.
      destruct (N.eqb_spec j i) as [->|Hne]; [exact (Hno _ Hj Hst)|].
      apply Hne. assert (H1 : aget (r_start m) (s2r s) = Some j) by (apply Hm; eauto).
      assert (H2 : aget (r_start m) (s2r s) = Some i) by (apply Hm; eauto). congruence.
    + rewrite (Hm a j). destruct (N.eqb_spec j i) as [->|_]; [|reflexivity].
      split; intros (mj & Hj & Hst); exfalso.
      * rewrite Hj in Ei. cbn [starts] in Ei. lia.
      * exact (Hno _ Hj Hst).
Qed.

(* the hypotheses of s2r_put on the map when slot i keeps its start: the map does not change *)
Lemma s2r_same_start s i m :
  Inv s -> slot s i = Some m ->
  (forall a, aget a (s2r s) = if starts (Some m) a then Some i else if starts (Some m) a then None else aget a (s2r s))
  /\ (forall j, aget (r_start m) (s2r s) = Some j -> j = i).
Proof.
  intros HI Hs. pose proof (inv_s2r_ok s HI i m Hs) as Hg. split.
  - intros a. cbn [starts]. destruct (N.eqb_spec a (r_start m)) as [->|_]; [exact Hg|reflexivity].
  - intros j. rewrite Hg. now intros [= <-].
Qed.

Lemma inv_put s s' i om L' :
  Inv s ->
  slots s' = set_at (slots s) (N.to_nat i) om None ->
  asorted (s2r s') ->
  (forall a, aget a (s2r s') = if starts om a then Some i else if starts (slot s i) a then None else aget a (s2r s)) ->
  holes_ok (holes s') (h2s s') -> asorted (pend s') -> Forall aligned (pend s') -> resv s' = [] ->
  (forall a, (oext om a + owners (region_exts (slots s)) a + owners (holes s') a + owners (pend s') a)%nat
             = ((if (a <? L')%N then 1 else 0) + oext (slot s i) a)%nat) ->
  L' <= file_len s' ->
  match om with
  | Some x => aligned (rext x) /\ r_len x <= r_reserved x /\ r_reserved x <= MAX_RESERVED_SIZE
              /\ (forall j, aget (r_start x) (s2r s) = Some j -> j = i)
              /\ ((exists m, slot s i = Some m /\ r_id x = r_id m) \/ find_id s (r_id x) = None)
  | None => True
  end ->
  rfile_mirrors s' ->
  Inv s' /\ layout_len s' = L'.
Proof.
  intros HI Esl S1 Hq Hok S3 Ap Ev Hcov Hfile Hom Hrf.
  pose proof (fun j => slot_set_at s s' i om j Esl) as Hsl.
  refine (mk_inv_ok s' L' ?[slots] Hok S3 Ap Ev ?[cover] S1 ?[s2r] Hfile ?[ids] Hrf).
  [slots]: { intros j mj. rewrite Hsl. destruct (j =? i); [intros ->; destruct Hom as (H1 & H2 & H3 & _); auto|].
    intros Hj. exact (inv_slot_ok s j mj HI Hj). }
  [cover]: { intros a. rewrite Esl. pose proof (owners_put_slot s i om a). specialize (Hcov a). lia. }
  [s2r]: { intros a j. rewrite Hsl. apply (s2r_put s i om _ HI Hq). intros x j' ->. apply Hom. }
  [ids]: { apply (ids_put s s' i om (inv_ids s HI) Hsl). destruct om; [apply Hom|exact I]. }
Qed.

Lemma inv_table_step s rf' i m m' :
  Inv s -> slot s i = Some m ->
  rext m' = rext m -> r_len m' <= r_reserved m' ->
  (r_id m' = r_id m \/ find_id s (r_id m') = None) ->
  let s' := put_slot (set_rfile s rf') i (Some m') in
  rfile_mirrors s' -> Inv s' /\ layout_len s' = layout_len s.
Proof.
  intros HI Hs Hrx Hlen Hid s' Hrf.
  destruct (s2r_same_start s i m HI Hs) as [Hq Hfresh].
  assert (Hst : r_start m' = r_start m) by (unfold rext in Hrx; congruence).
  assert (Hrs : r_reserved m' = r_reserved m) by (unfold rext in Hrx; congruence).
  refine (inv_put s s' i (Some m') (layout_len s) HI eq_refl (inv_sorted_s2r s HI) ?[map] (inv_holes_ok s HI)
            (inv_sorted_pend s HI) (inv_pend_aligned s HI) (inv_no_resv s HI) ?[cover] (inv_file s HI) ?[local] Hrf).
  [map]: { intros a. rewrite Hs. cbn [starts]. rewrite Hst. apply Hq. }
  [cover]: { intros a. rewrite Hs. cbn [oext]. rewrite Hrx. pose proof (inv_cover3 s a HI). subst s'. st_simpl. lia. }
  [local]: { rewrite Hrx, Hst. split; [apply (inv_region_aligned s i m HI Hs)|]. split; [exact Hlen|].
    split; [rewrite Hrs; apply (inv_len s HI i m Hs)|]. split; [exact Hfresh|]. destruct Hid; eauto. }
Qed.

Lemma inv_wid_upd s i f m :
  Inv s -> slot s i = Some m ->
  rext (f m) = rext m -> r_len (f m) <= r_reserved m ->
  (r_id (f m) = r_id m \/ find_id s (r_id (f m)) = None) ->
  (r_state (f m) <> ST_WRITE -> r_state m <> ST_WRITE /\ srec (f m) = srec m) ->
  Inv (write_if_dirty (upd s i f) i) /\ layout_len (write_if_dirty (upd s i f) i) = layout_len s.
Proof.
  intros HI Hs Hrx Hlen Hid Hst. rewrite (wid_upd_wput s i f m Hs), wput_nf.
  assert (Hrs : r_reserved (f m) = r_reserved m) by (unfold rext in Hrx; congruence).
  apply (inv_table_step s _ i m (fin (f m)) HI Hs).
  - rewrite fin_rext. exact Hrx.
  - rewrite fin_len, fin_reserved. lia.
  - rewrite fin_id. exact Hid.
  - apply (mirrors_wid_put s _ i m (f m) (inv_rfile s HI) Hs Hst); [|reflexivity].
    intros j. rewrite slot_put_slot, slot_set_rfile. reflexivity.
Qed.

Lemma inv_upd_keep s i f m :
  Inv s -> slot s i = Some m ->
  srec (f m) = srec m -> (r_state (f m) =? ST_WRITE) = (r_state m =? ST_WRITE) ->
  (r_state m = ST_WRITE -> r_dmax (f m) = 0) ->
  Inv (upd s i f) /\ layout_len (upd s i f) = layout_len s.
Proof.
  intros HI Hs Hrec Hst Hd. rewrite (upd_some s i f m Hs).
  pose proof Hrec as Hf. unfold srec in Hf. injection Hf as F1 F2 F3 F4.
  apply (inv_table_step s (rfile s) i m (f m) HI Hs).
  - unfold rext. congruence.
  - rewrite F2, F3. apply (inv_len s HI i m Hs).
  - left. exact F4.
  - apply (mirrors_gen s _ i (Some (f m)) (inv_rfile s HI)).
    + intros j. rewrite slot_put_slot. reflexivity.
    + intros j _. left. reflexivity.
    + pose proof (inv_rfile s HI i) as Hm. rewrite Hs in Hm. cbn [mirrors1]. rewrite Hst. st_simpl.
      destruct (r_state m =? ST_WRITE) eqn:E.
      * destruct Hm as (H1 & H2 & H3). split; [exact H1|]. split; [lia|]. apply Hd. lia.
      * rewrite Hrec. exact Hm.
Qed.

Lemma inv_set_mem s mm : Inv s -> Inv (set_mem s mm) /\ layout_len (set_mem s mm) = layout_len s.
Proof. intros H. split; [|reflexivity]. destruct H. constructor; assumption. Qed.

Lemma inv_set_min_regions s n : Inv s -> Inv (set_min_regions s n) /\ layout_len (set_min_regions s n) = layout_len s.
Proof.
  intros HI. unfold set_min_regions.
  set (rf := if len (rfile s) <? n then rfile s ++ repeat None (N.to_nat (n - len (rfile s))) else rfile s).
  assert (H1 : Inv (set_rfile s rf)).
  { pose proof (inv_rfile s HI) as Hrf. destruct HI. constructor; try assumption. intros j.
    apply (mirrors1_grow (slot s j) (get (rfile s) j) (get rf j) (Hrf j)).
    subst rf. destruct (len (rfile s) <? n); [apply get_pad|left; reflexivity]. }
  exact (inv_set_min_len (set_rfile s rf) (n * PAGE_SIZE) H1).
Qed.

Lemma rename_post s i new_id : Inv s -> post False s (rename s i new_id).
Proof.
  intros HI. unfold rename. destruct (slot s i) as [m|] eqn:Hs; [|now apply post_same].
  destruct (find_id s new_id) eqn:Ef; [now apply post_same|].
  destruct (inv_len s HI i m Hs) as [Hl _].
  (* the new name is free, so it is not the old one and the setter does change the record *)
  assert (Hf : m_set_id m new_id = mkR (r_start m) (r_len m) (r_reserved m) new_id ST_WRITE (r_dmin m) (r_dmax m)).
  { unfold m_set_id. destruct (N.eqb_spec (r_id m) new_id) as [E|_]; [destruct (find_id_none s new_id i m Ef Hs E)|reflexivity]. }
  destruct (inv_wid_upd s i (fun m => m_set_id m new_id) m HI Hs) as [H1 H2]; cbv beta; rewrite ?Hf.
  - reflexivity.
  - exact Hl.
  - right. exact Ef.
  - intros Hx. now destruct Hx.
  - apply post_len. split; [apply inv_set_held, H1|exact H2].
Qed.

Lemma clear_dirty_srec m : srec (m_clear_dirty m) = srec m.
Proof. unfold m_clear_dirty. destruct (m_is_dirty m); reflexivity. Qed.
Lemma clear_dirty_state m : r_state (m_clear_dirty m) = r_state m.
Proof. unfold m_clear_dirty. destruct (m_is_dirty m); reflexivity. Qed.
Lemma clear_dirty_dmax m : r_dmax m = 0 -> r_dmax (m_clear_dirty m) = 0.
Proof. unfold m_clear_dirty. destruct (m_is_dirty m); auto. Qed.

Lemma inv_write_state_dmax s i m : Inv s -> slot s i = Some m -> r_state m = ST_WRITE -> r_len m = 0 /\ r_dmax m = 0.
Proof.
  intros HI Hs Hst. pose proof (inv_rfile s HI i) as Hm. rewrite Hs, Hst, N.eqb_refl in Hm. tauto.
Qed.

Lemma flush_region_post s i : Inv s -> post False s (flush_region s i).
Proof.
  intros HI. unfold flush_region. destruct (slot s i) as [m|] eqn:Hs; [|now split].
  assert (H1 : Inv (upd s i m_clear_dirty) /\ layout_len (upd s i m_clear_dirty) = layout_len s).
  { apply (inv_upd_keep s i _ m HI Hs).
    - apply clear_dirty_srec.
    - now rewrite clear_dirty_state.
    - intros Hw. apply clear_dirty_dmax. eapply inv_write_state_dmax; eauto. }
  destruct (r_state m =? ST_CLEAN) eqn:Ec; [now apply post_len|].
  destruct (r_state m =? ST_WRITE) eqn:Ew; [split; [apply H1|intros Hne; now destruct Hne]|].
  rewrite upd_upd. apply post_len. apply (inv_upd_keep s i _ m HI Hs).
  - cbn [srec m_set_state r_start r_len r_reserved r_id]. apply clear_dirty_srec.
  - cbn [m_set_state r_state]. rewrite Ew. reflexivity.
  - intros Hw. lia.
Qed.
