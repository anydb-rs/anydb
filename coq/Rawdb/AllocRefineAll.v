(* C01 for the allocator model: every step refines the reference of AllocSpec (one independent byte
   vector per region name), `c01_refines_step`, and a step addressed at one name leaves every other
   name's bytes, length and persistence flag alone, `c01_isolation`.  Both carry
   `step s o <> APanic` and `no_overflow`; `op_fits` implies the second, `op_fits_strong` both.

   FINDING (reference incompleteness, not an allocator bug): the reference write has no size
   limit, the allocator refuses a write whose doubled reserve would exceed 2^64 with
   RegionSizeOverflow; `c01_refines_step_unbounded_refuted` is the witness, hence `no_overflow`. *)
From Anydb Require Import Common.Base Rawdb.Alloc Rawdb.AllocSpec Rawdb.AllocInv
  Rawdb.AllocFacts Rawdb.AllocErr
  Rawdb.AllocNoPanic
  Rawdb.AllocRefine Rawdb.AllocRefineS Rawdb.AllocRefineC Rawdb.AllocRefineW.

Definition no_overflow (s : st) (o : op) : Prop :=
  match o with
  | Write _ _ _ | WriteAt _ _ _ _ | TruncWrite _ _ _ _ => forall s', step s o <> AErr s' RegionSizeOverflow
  | _ => True
  end.

(* A new constructor of Alloc.op is entered, for C01 and the layer link, in: Alloc.step,
   AllocSpec.spec_step (op_defined); the side conditions AllocFacts.op_fits, AllocErr.writes_fit,
   AllocNoPanic.op_fits_strong, `no_overflow` here; SpecCongr.spec_step_wf, spec_step_congr;
   StepOutcome.step_outcome; its own lemma `refines_<op>` in AllocRefineS or C (a write: an instance
   of AllocRefineW.refines_write_with), built with AllocRefine.refines_at / refines_ok /
   refines_err and one of the spec_eq builders; then
   `c01_refines_step`, `fits_no_overflow`, `op_ids`, `spec_step_frame` here and
   RegionLink.reg_apply, keeps, link_step_region.  A new clause of Inv or a new placement path of
   write_with stops before these files: they take `Inv s` whole and see a write as one that fits or
   as AllocOutcome.grow_shape.  The crash side walks the operations again: AllocEvents.v,
   AllocDisciplinedAll.v. *)
Theorem c01_refines_step : forall s o,
  Inv s -> step s o <> APanic -> no_overflow s o -> refines_step s o.
Proof.
  intros s o HI Hnp Hov. destruct o.
  - now apply refines_create.
  - now apply (refines_write_with s _ id f n None false).
  - now apply (refines_write_with s _ id f n (Some at_) false).
  - now apply (refines_write_with s _ id f n (Some at_) true).
  - now apply refines_truncate.
  - now apply refines_rename.
  - now apply refines_remove.
  - now apply refines_drop_handle.
  - now apply refines_retain.
  - now apply refines_flush.
  - now apply refines_flush_region.
  - now apply refines_compact.
  - now apply refines_step_reopen.
  - now apply refines_set_min_len.
  - now apply refines_set_min_regions.
Qed.

Lemma fits_no_overflow s o : Inv s -> op_fits s o -> no_overflow s o.
Proof.
  intros HI Hf. destruct o; try exact I; intros s'; cbn [step]; apply with_region_ind; try discriminate;
    intros i m _ Hs; exact (write_with_no_overflow s i m _ _ _ _ s' HI Hs Hf).
Qed.

Corollary c01_refines_step_fits : forall s o,
  Inv s -> op_fits s o -> step s o <> APanic -> refines_step s o.
Proof. intros s o HI Hf Hnp. apply c01_refines_step; auto. now apply fits_no_overflow. Qed.

Corollary c01_refines_step_strong : forall s o,
  Inv s -> op_fits_strong s o -> refines_step s o.
Proof. intros s o HI Hf. apply c01_refines_step_fits; [exact HI|exact (proj1 Hf)|now apply never_panics]. Qed.

(* None: the operation is a bulk drop *)
Definition op_ids (o : op) : option (list N) :=
  match o with
  | Create id _ | Write id _ _ | WriteAt id _ _ _ | TruncWrite id _ _ _
  | Truncate id _ | Remove id | FlushRegion id => Some [id]
  | Rename id new_id => Some [id; new_id]
  | DropHandle _ | Flush | Compact | SetMinLen _ | SetMinRegions _ => Some []
  | Retain _ | Reopen => None
  end.

Definition same_region (a b : option sreg) : Prop :=
  match a, b with
  | Some x, Some y => sreg_eq x y
  | None, None => True
  | _, _ => False
  end.

Lemma spec_step_frame sp o ids id' :
  op_ids o = Some ids -> ~ In id' ids ->
  sget id' (sp_regions (fst (spec_step sp o))) = sget id' (sp_regions sp).
Proof.
  intros Hi Hn.
  assert (Hput : forall id v l, ~ In id' [id] -> sget id' (sput id v l) = sget id' l).
  { intros id v l Hid. rewrite sget_sput. destruct (N.eqb_spec id' id) as [->|]; [destruct Hid; now left|reflexivity]. }
  assert (Hw : forall id f n at_ tr, ~ In id' [id] ->
    sget id' (sp_regions (fst (spec_wr sp id f n at_ tr))) = sget id' (sp_regions sp)).
  { intros id f n at_ tr Hid. apply sp_with_frame. intros r. destruct (s_write r f n at_ tr); try reflexivity.
    now apply Hput. }
  destruct o; cbn [op_ids] in Hi; try discriminate Hi; injection Hi as <-; try reflexivity; try (now apply Hw);
    cbn [spec_step].
  - destruct (sget id (sp_regions sp)); cbn [fst sp_regions]; [reflexivity|now apply Hput].
  - apply sp_with_frame. intros r. destruct (_ <? from); [reflexivity|now apply Hput].
  - apply sp_with_frame. intros r. destruct (sget new_id (sp_regions sp)); [reflexivity|].
    cbn [fst sp_regions]. rewrite sget_sput, sget_sdel.
    destruct (N.eqb_spec id' new_id) as [->|]; [destruct Hn; right; now left|].
    destruct (N.eqb_spec id' id) as [->|]; [destruct Hn; now left|reflexivity].
  - apply sp_with_frame. intros r. destruct (sp_is_held sp id); [reflexivity|].
    cbn [fst sp_regions]. rewrite sget_sdel. destruct (N.eqb_spec id' id) as [->|]; [destruct Hn; now left|reflexivity].
  - apply sp_with_frame. reflexivity.
Qed.

Theorem c01_isolation : forall s o ids id',
  Inv s -> step s o <> APanic -> no_overflow s o ->
  op_ids o = Some ids -> ~ In id' ids ->
  same_region (sget id' (sp_regions (abs (fst (step_total s o))))) (sget id' (sp_regions (abs s))).
Proof.
  intros s o ids id' HI Hnp Hov Hi Hn.
  destruct (c01_refines_step s o HI Hnp Hov) as [[H _] _]. specialize (H id').
  rewrite (spec_step_frame (abs s) o ids id' Hi Hn) in H. exact H.
Qed.

Corollary c01_isolation_strong : forall s o ids id',
  Inv s -> op_fits_strong s o -> op_ids o = Some ids -> ~ In id' ids ->
  same_region (sget id' (sp_regions (abs (fst (step_total s o))))) (sget id' (sp_regions (abs s))).
Proof.
  intros s o ids id' HI Hf. apply c01_isolation; [exact HI|now apply never_panics|].
  apply fits_no_overflow; [exact HI|exact (proj1 Hf)].
Qed.

(* the hypotheses are satisfiable *)
Example c01_refines_example : refines_step (init 0) (Create 1 false).
Proof.
  apply c01_refines_step_strong; [apply inv_init|].
  exact (proj1 (proj2 no_panic_example)).
Qed.

Definition c01_refines_step_unbounded : Prop :=
  forall s o, Inv s -> step s o <> APanic -> refines_step s o.

Lemma c01_refines_step_unbounded_refuted : ~ c01_refines_step_unbounded.
Proof.
  intros H.
  assert (Hst : step big_state (Write 1 (fun _ => 0) two64) = AErr big_state RegionSizeOverflow)
    by (vm_compute; reflexivity).
  specialize (H big_state (Write 1 (fun _ => 0) two64) (proj1 inv_big_state)).
  rewrite Hst in H. specialize (H ltac:(discriminate)).
  destruct H as [_ H]. unfold step_total in H. rewrite Hst in H. vm_compute in H. exact H.
Qed.
