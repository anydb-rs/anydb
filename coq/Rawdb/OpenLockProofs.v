(* C18 over the model Rawdb/OpenLock.v.  `Inv` has three shapes: nobody there (no lock held); one
   `live` instance holding both locks; one instance being dropped that still holds the data lock.
   From it an open is refused at the data lock, without effect, exactly when `holder_alive`
   (`open_held` / `open_free`).  All of it stands in Section Rule, under the one hypothesis `flock_rule tl`.

   TRUSTED ASSUMPTION (the kernel, not verified): the two halves of `flock_rule` (spelt out once more as the
   hypotheses of Section Proofs, which holds `exclusive` alone) are the flock(2) rule for LOCK_EX|LOCK_NB as
   used by std::fs::File::try_lock on Linux:
     flock_excl : an open file description cannot take the exclusive non-blocking lock while a
                  DIFFERENT open file description holds it (threads and processes alike: the lock
                  belongs to the open file description, not to the thread or the process);
     flock_free : the request is granted when no other open file description holds the lock
                  (no spurious failure such as ENOLCK/EINTR).
   Closing the last descriptor of an open file description releases its lock and nothing else does
   (that is `close` in the model).  The theorems hold for EVERY oracle satisfying the two hypotheses;
   `flock_rule_satisfiable` shows they are satisfiable. *)
From Anydb Require Import Common.Base Gen.Consts Gen.OpenOrder Rawdb.OpenLock.

Lemma owner_eqb_eq a b : owner_eqb a b = true <-> a = b.
Proof. destruct a, b; cbn [owner_eqb]; rewrite ?N.eqb_eq; split; intro H; try discriminate; congruence. Qed.

Lemma owner_eqb_refl me : owner_eqb me me = true.
Proof. apply owner_eqb_eq. reflexivity. Qed.

Lemma unlock_self me : unlock me [me] = [].
Proof. unfold unlock. cbn [filter]. rewrite owner_eqb_refl. reflexivity. Qed.

Lemma unlock_self_cons me : unlock me [me; me] = [].
Proof. unfold unlock. cbn [filter]. rewrite owner_eqb_refl. reflexivity. Qed.

Lemma unlock_other me o : o <> me -> unlock me [o] = [o].
Proof.
  intro H. unfold unlock. cbn [filter].
  destruct (owner_eqb o me) eqn:E; [apply owner_eqb_eq in E; contradiction | reflexivity].
Qed.

Lemma unlock_nil me : unlock me [] = []. Proof. reflexivity. Qed.

Lemma file_eta fl : mkFile (f_exists fl) (f_len fl) (f_content fl) (f_lock fl) = fl.
Proof. destruct fl; reflexivity. Qed.
Lemma fs_eta x : mkFs (data x) (regs x) = x.
Proof. destruct x; reflexivity. Qed.

(* the generated facts the model's lifetime rules rest on: if the source changes one of them this
   stops compiling and the instance model has to be revisited *)
Lemma gen_lifetime_facts :
  reader_holds_strong = true /\ region_holds_strong = false /\ bg_task_holds_strong = false /\
  drop_joins_bg_at_strong_count = 1 /\ try_lock_error_propagates_as_TryLock = true.
Proof. repeat split; reflexivity. Qed.

Definition op_inst (o : op) : option N :=
  match o with
  | Open _ | ReleaseStep _ => None
  | CloneHandle k | RegionDb k | DropHandle k | MkReader k | DropReader k | SpawnBg k | FinishBg k | Flush k _ => Some k
  end.

(* THE ASSUMED KERNEL RULE, as one predicate on the oracle (trusted base of C18) *)
Definition flock_rule (tl : list owner -> owner -> bool) : Prop :=
  (forall holders me, (exists o, In o holders /\ o <> me) -> tl holders me = false) /\
  (forall holders me, (forall o, In o holders -> o = me) -> tl holders me = true).

Section Rule.
Variable tl : list owner -> owner -> bool.
Hypothesis flock : flock_rule tl.

Definition grown (l m : N) : N := if l <? m then m else l.

(* GENERATED ORDER USED HERE: the equation is obtained by computing `open_prog` from
   Gen.OpenOrder.open_with_min_len_calls / regions_open_calls.  try_lock(data) comes before set_len,
   set_len before Regions::open; a reordering in the source changes open_prog and this lemma (and
   with it every theorem below) stops compiling. *)
Lemma open_files_spec me m x :
  open_files tl me m x =
    let d := data x in let r := regs x in
    if tl (f_lock d) me then
      if tl (f_lock r) me then
        (mkFs (mkFile true (grown (f_len d) m) (f_content d) (me :: f_lock d))
              (mkFile true (f_len r) (f_content r) (me :: f_lock r)), Opened)
      else
        (mkFs (mkFile true (grown (f_len d) m) (f_content d) (unlock me (me :: f_lock d)))
              (mkFile true (f_len r) (f_content r) (unlock me (f_lock r))), RefusedAt FRegions)
    else (mkFs (mkFile true (f_len d) (f_content d) (unlock me (f_lock d))) r, RefusedAt FData).
Proof using.
  unfold open_files, open_prog, grown. destruct x as [d r]. destruct d as [de dl dc dk], r as [re rl rc rk].
  cbn -[N.ltb unlock]. rewrite !orb_true_r.
  destruct (tl dk me); cbn -[N.ltb unlock]; [| reflexivity].
  destruct (dl <? m); cbn -[N.ltb unlock]; rewrite ?orb_true_r; destruct (tl rk me); cbn -[N.ltb unlock]; reflexivity.
Qed.

(* C18, "what if the data lock is obtained and the regions lock is refused?": the growth to min_len
   has ALREADY been applied (and synced) and stays, the data lock is given back, the caller gets
   Err(TryLock).  Stated for an ARBITRARY file-system state; by no_half_open_thm no state reachable
   through the library is of this kind. *)
Lemma half_open_would_grow_data me m x :
  tl (f_lock (data x)) me = true -> tl (f_lock (regs x)) me = false -> f_len (data x) < m ->
  snd (open_files tl me m x) = RefusedAt FRegions /\
  f_len (data (fst (open_files tl me m x))) = m /\ f_len (data (fst (open_files tl me m x))) <> f_len (data x).
Proof using.
  clear flock. (* or lia's proof term mentions it *)
  intros Hd Hr Hlt. rewrite open_files_spec. cbn zeta. rewrite Hd, Hr. cbn [fst snd data f_len]. unfold grown.
  destruct (f_len (data x) <? m) eqn:E; [| lia]. repeat split; lia.
Qed.

Definition locks_are (x : fs) (ld lr : list owner) : Prop := f_lock (data x) = ld /\ f_lock (regs x) = lr.
Definition exists_both (x : fs) : Prop := f_exists (data x) = true /\ f_exists (regs x) = true.

Record live (s : st) (i : inst) : Prop := {
  live_insts : insts s = [i];
  live_closing : closing s = [];
  live_locks : locks_are (files s) [Opener (i_id i)] [Opener (i_id i)];
  live_exists : exists_both (files s);
  live_next : i_id i < next s
}.

Inductive Inv (s : st) : Prop :=
| InvIdle : insts s = [] -> closing s = [] -> locks_are (files s) [] [] -> Inv s
| InvLive (i : inst) : live s i -> 0 < strong i -> (i_joining i = true -> 0 < i_bg i) -> Inv s
(* GENERATED ORDER USED HERE: `regions` is declared (dropped) before `file` in DatabaseInner, so a
   drop has two stages, both Files open (b) and the data File alone, and holds the data lock in both *)
| InvClosing (k : N) (b : bool) :
    insts s = [] -> closing s = [(k, if b then drop_files else [FData])] ->
    locks_are (files s) [Opener k] (if b then [Opener k] else []) -> exists_both (files s) ->
    k < next s -> Inv s.

Definition holder_alive (s : st) : Prop := insts s <> [] \/ closing s <> [].

Lemma Inv_init x : unlocked x -> Inv (init x).
Proof. intros [Hd Hr]. apply InvIdle; cbn; auto. split; assumption. Qed.

Lemma holder_alive_dec s : holder_alive s \/ ~ holder_alive s.
Proof.
  unfold holder_alive. destruct (insts s); [destruct (closing s)|];
    [right; intros [H|H]; apply H; reflexivity|left; right; discriminate|left; left; discriminate].
Qed.

(* only the idle shape of the invariant has no holder *)
Lemma open_free s m :
  Inv s -> ~ holder_alive s ->
  step tl s (Open m) =
    (let x := files s in
     mkSt (mkFs (mkFile true (grown (f_len (data x)) m) (f_content (data x)) [Opener (next s)])
                (mkFile true (f_len (regs x)) (f_content (regs x)) [Opener (next s)]))
          [mkInst (next s) 1 0 0 false] [] (next s + 1),
     O_open_ok (next s) (grown (f_len (data (files s))) m) (f_len (regs (files s))) (f_content (data (files s)))).
Proof.
  intros [Hi Hc [Hd Hr] | i L _ _ | k b _ Hc _ _ _] Hn.
  - unfold step. rewrite open_files_spec. cbn zeta. rewrite Hd, Hr.
    rewrite (proj2 flock [] (Opener (next s))) by (intros o []).
    rewrite Hi, Hc. reflexivity.
  - destruct Hn. left. rewrite (live_insts s i L). discriminate.
  - destruct Hn. right. rewrite Hc. discriminate.
Qed.

Lemma open_refused s m k lr :
  locks_are (files s) [Opener k] lr -> exists_both (files s) -> k < next s ->
  step tl s (Open m) =
    (mkSt (files s) (insts s) (closing s) (next s + 1),
     O_open_err (next s) FData (f_len (data (files s))) (f_len (regs (files s)))).
Proof.
  intros [Hd Hr] [Ed Er] Hk. unfold step. rewrite open_files_spec. cbn zeta. rewrite Hd.
  assert (Hne : Opener k <> Opener (next s)) by (intro H; inversion H; lia).
  rewrite (proj1 flock [Opener k] (Opener (next s))) by (exists (Opener k); split; [left; reflexivity | exact Hne]).
  rewrite (unlock_other _ _ Hne).
  replace (mkFile true (f_len (data (files s))) (f_content (data (files s))) [Opener k]) with (data (files s))
    by (rewrite <- Hd, <- Ed; symmetry; apply file_eta).
  rewrite fs_eta. reflexivity.
Qed.

Lemma open_held s m : Inv s -> holder_alive s ->
  step tl s (Open m) =
    (mkSt (files s) (insts s) (closing s) (next s + 1),
     O_open_err (next s) FData (f_len (data (files s))) (f_len (regs (files s)))) /\
  Inv (mkSt (files s) (insts s) (closing s) (next s + 1)).
Proof.
  intros [Hi Hc _ | i L Hs Hjb | k b Hi Hc HL HE Hk] Ha.
  - destruct Ha as [Ha | Ha]; contradiction.
  - split; [exact (open_refused s m _ _ (live_locks s i L) (live_exists s i L) (live_next s i L))|].
    apply (InvLive _ i); [|exact Hs|exact Hjb]. pose proof (live_next s i L). constructor; cbn; try apply L. lia.
  - split; [eapply open_refused; eauto|]. eapply (InvClosing _ k b); cbn; eauto. lia.
Qed.

Lemma find_live s i k j : live s i -> find_inst k (insts s) = Some j -> j = i /\ i_id i = k.
Proof.
  intros L H. rewrite (live_insts s i L) in H. cbn in H. destruct (i_id i =? k) eqn:E; [|discriminate].
  apply N.eqb_eq in E. injection H as <-. auto.
Qed.

Lemma step_skip s o k : op_inst o = Some k -> find_inst k (insts s) = None -> step tl s o = (s, O_skip).
Proof. intros Ho Hf. destruct o; inversion Ho; subst; cbn [step]; rewrite Hf; reflexivity. Qed.

Lemma Inv_put s i i' :
  live s i -> i_id i' = i_id i -> 0 < strong i' -> (i_joining i' = true -> 0 < i_bg i') ->
  Inv (mkSt (files s) (put_inst i' (insts s)) (closing s) (next s)).
Proof.
  intros L Hid Hs Hjb. apply (InvLive _ i'); [|exact Hs|exact Hjb].
  constructor; cbn [insts closing files next]; rewrite ?Hid; try apply L.
  rewrite (live_insts s i L). unfold put_inst, remove_inst. cbn [filter]. rewrite Hid, N.eqb_refl. reflexivity.
Qed.

Lemma Inv_release s i : live s i -> Inv (begin_release s (i_id i)).
Proof.
  intros L. apply (InvClosing _ (i_id i) true); cbn [begin_release insts closing files next]; try apply L.
  - rewrite (live_insts s i L). unfold remove_inst. cbn [filter]. rewrite N.eqb_refl. reflexivity.
  - rewrite (live_closing s i L). reflexivity.
Qed.

Lemma Inv_drop_strong s i i' :
  live s i -> i_id i' = i_id i -> i_joining i' = i_joining i -> i_bg i' = i_bg i ->
  strong i = strong i' + 1 -> (i_joining i = true -> 0 < i_bg i) ->
  Inv (fst (drop_strong s i i')).
Proof.
  intros L Hid Hj Hb Hs Hjb. unfold drop_strong, drop_joins_bg_at_strong_count.
  destruct (strong i =? 1) eqn:E1; [destruct (i_bg i =? 0) eqn:E2|]; cbn [fst].
  - apply Inv_release, L.
  - apply (Inv_put s i); auto; unfold strong; cbn [i_joining i_handles i_readers i_bg]; lia.
  - apply (Inv_put s i); auto; [lia|]. rewrite Hj, Hb. exact Hjb.
Qed.

Lemma Inv_step s o : Inv s -> Inv (fst (step tl s o)).
Proof.
  intros HI. destruct (op_inst o) as [k|] eqn:Ho.
  - (* an operation on instance k: there is such an instance only in the live shape *)
    destruct (find_inst k (insts s)) as [i|] eqn:Hf; [|rewrite (step_skip _ _ _ Ho Hf); exact HI].
    pose proof HI as [Hi _ _ | i0 L Hs Hjb | k0 b Hi _ _ _ _]; try (rewrite Hi in Hf; discriminate Hf).
    destruct (find_live _ _ _ _ L Hf) as [-> <-].
    destruct i0 as [id hn rd bg jn]. cbn [i_id i_joining i_bg] in *. unfold strong in Hs. cbn in Hs.
    destruct o; inversion Ho; subst; cbn [step]; rewrite Hf; cbn [i_handles i_readers i_bg i_joining].
    + destruct (0 <? hn) eqn:Eh; cbn [fst]; [|exact HI].
      apply (Inv_put s _ _ L); [reflexivity|unfold strong; cbn; lia|exact Hjb].
    + apply (Inv_put s _ _ L); [reflexivity|unfold strong; cbn; lia|exact Hjb].
    + destruct (0 <? hn) eqn:Eh; [|exact HI].
      apply Inv_drop_strong; auto. unfold strong; cbn; lia.
    + apply (Inv_put s _ _ L); [reflexivity|unfold strong; cbn; lia|exact Hjb].
    + destruct (0 <? rd) eqn:Eh; [|exact HI].
      apply Inv_drop_strong; auto. unfold strong; cbn; lia.
    + destruct ((0 <? hn) && negb jn) eqn:Eh; cbn [fst]; [|exact HI].
      apply (Inv_put s _ _ L); [reflexivity|unfold strong; cbn; lia|discriminate].
    + (* FinishBg: the last task of a blocked drop lets the dropper go *)
      destruct (0 <? bg) eqn:Eb; [|exact HI].
      destruct (jn && (bg - 1 =? 0)) eqn:Ej; [destruct (strong (mkInst id hn rd 0 false) =? 0) eqn:E0|]; cbn [fst].
      * apply (Inv_release s _ L).
      * apply (Inv_put s _ _ L); [reflexivity|lia|discriminate].
      * apply (Inv_put s _ _ L); [reflexivity|unfold strong; cbn; lia|].
        cbn. intros Hjn. specialize (Hjb Hjn). rewrite Hjn in Ej. cbn [andb] in Ej. lia.
    + (* Flush: the files keep their lock holders and existence flags *)
      destruct (0 <? hn) eqn:Eh; cbn [fst]; [|exact HI].
      apply (InvLive _ (mkInst id hn rd bg jn)); [constructor; apply L|unfold strong; cbn; lia|exact Hjb].
  - destruct o; try discriminate Ho.
    + destruct (holder_alive_dec s) as [Ha|Hn].
      * destruct (open_held s min_len HI Ha) as [-> HI']. exact HI'.
      * rewrite (open_free s min_len HI Hn). cbn [fst].
        apply (InvLive _ (mkInst (next s) 1 0 0 false)); [|unfold strong; cbn; lia|discriminate].
        repeat split; cbn; lia.
    + cbn [step].
      destruct HI as [Hi Hc HL | i L Hs Hjb | k0 b Hi Hc HL HE Hk0].
      * rewrite Hc. cbn. apply InvIdle; assumption.
      * rewrite (live_closing s i L). cbn. eapply InvLive; eauto.
      * rewrite Hc. cbn [release_in].
        destruct (k0 =? k) eqn:Ek; [apply N.eqb_eq in Ek; subst k0 | cbn [fst]; eapply InvClosing; eassumption].
        destruct HL as [Hd Hr]. destruct HE as [Ed Er]. destruct b; cbn [fst].
        -- (* the regions File is closed: its lock is released, the data lock stays *)
           apply (InvClosing _ k false); cbn; auto.
           ++ split; cbn; [exact Hd|rewrite Hr; apply unlock_self].
           ++ split; assumption.
        -- (* the last File is closed: nobody holds anything *)
           apply InvIdle; cbn; auto. split; cbn; [rewrite Hd; apply unlock_self|exact Hr].
Qed.

Lemma run_app s h1 h2 : run tl s (h1 ++ h2) = run tl (run tl s h1) h2.
Proof. unfold run. apply fold_left_app. Qed.
Lemma run_cons s o h : run tl s (o :: h) = run tl (fst (step tl s o)) h.
Proof. reflexivity. Qed.

Lemma Inv_run s h : Inv s -> Inv (run tl s h).
Proof. revert s. induction h as [| o h IH]; intros s HI; [exact HI |]. rewrite run_cons. apply IH, Inv_step, HI. Qed.

Lemma reachable_Inv x h : unlocked x -> Inv (run tl (init x) h).
Proof. intros Hx. apply Inv_run, Inv_init, Hx. Qed.

(* at most one live Database instance per directory in every reachable state, and a live instance
   and one still being dropped never coexist *)
Lemma exclusive_thm : forall x h, unlocked x ->
  (length (insts (run tl (init x) h)) + length (closing (run tl (init x) h)) <= 1)%nat.
Proof.
  intros x h Hx. destruct (reachable_Inv x h Hx) as [Hi Hc _ | i L _ _ | k b Hi Hc _ _ _];
    [|rewrite (live_insts _ i L), (live_closing _ i L)|]; rewrite ?Hi, ?Hc; cbn; lia.
Qed.

Definition not_flush (o : op) : Prop := match o with Flush _ _ => False | _ => True end.

Lemma files_drop_strong s i i' : files (fst (drop_strong s i i')) = files s.
Proof. unfold drop_strong. destruct (_ =? _); [destruct (_ =? _)|]; reflexivity. Qed.

Lemma content_release_in k cl x : f_content (data (snd (fst (release_in k cl x)))) = f_content (data x).
Proof.
  induction cl as [| [k' fsl] r IH]; cbn [release_in]; [reflexivity |]. destruct (k' =? k).
  - destruct fsl as [| f rest]; [reflexivity |]. cbn [fst snd]. unfold close. destruct f; reflexivity.
  - destruct (release_in k r x) as [[r' x'] b]. exact IH.
Qed.

(* in particular no open, refused or successful, with any min_len *)
Lemma content_preserved s o : not_flush o -> f_content (data (files (fst (step tl s o)))) = f_content (data (files s)).
Proof.
  intro Hnf. destruct o; try contradiction; cbn [step].
  - rewrite open_files_spec. cbn zeta. destruct (tl _ _); [destruct (tl _ _) |]; reflexivity.
  - destruct (find_inst k (insts s)) as [i |]; [destruct (0 <? i_handles i) |]; reflexivity.
  - destruct (find_inst k (insts s)); reflexivity.
  - destruct (find_inst k (insts s)) as [i |]; [destruct (0 <? i_handles i) |]; rewrite ?files_drop_strong; reflexivity.
  - destruct (find_inst k (insts s)); reflexivity.
  - destruct (find_inst k (insts s)) as [i |]; [destruct (0 <? i_readers i) |]; rewrite ?files_drop_strong; reflexivity.
  - destruct (find_inst k (insts s)) as [i |]; [destruct (_ && _) |]; reflexivity.
  - destruct (find_inst k (insts s)) as [i |]; [destruct (0 <? i_bg i); [destruct (_ && _); [destruct (_ =? 0) |] |] |]; reflexivity.
  - pose proof (content_release_in k (closing s) (files s)) as G.
    destruct (release_in k (closing s) (files s)) as [[cl x'] b]. destruct b; [exact G | reflexivity].
Qed.

Lemma content_preserved_run s h : Forall not_flush h -> f_content (data (files (run tl s h))) = f_content (data (files s)).
Proof.
  revert s. induction h as [| o h IH]; intros s HF; [reflexivity |].
  inversion HF; subst. rewrite run_cons, IH by assumption. apply content_preserved. assumption.
Qed.

(* while a holder is alive (some handle, reader, or a drop blocked on background tasks; or an
   instance whose Files are still being closed), every open, with any min_len, returns Err(TryLock)
   at the data lock and leaves the file-system state and the instances untouched *)
Lemma refused_no_effect_thm : forall x h m, unlocked x ->
  holder_alive (run tl (init x) h) ->
  step tl (run tl (init x) h) (Open m) =
    (mkSt (files (run tl (init x) h)) (insts (run tl (init x) h)) (closing (run tl (init x) h)) (next (run tl (init x) h) + 1),
     O_open_err (next (run tl (init x) h)) FData
       (f_len (data (files (run tl (init x) h)))) (f_len (regs (files (run tl (init x) h))))).
Proof. intros x h m Hx Ha. exact (proj1 (open_held _ m (reachable_Inv x h Hx) Ha)). Qed.

Lemma open_when_free_thm : forall x h m, unlocked x ->
  ~ holder_alive (run tl (init x) h) ->
  snd (step tl (run tl (init x) h) (Open m)) =
    O_open_ok (next (run tl (init x) h)) (grown (f_len (data (files (run tl (init x) h)))) m)
      (f_len (regs (files (run tl (init x) h)))) (f_content (data (files (run tl (init x) h)))) /\
  insts (fst (step tl (run tl (init x) h) (Open m))) = [mkInst (next (run tl (init x) h)) 1 0 0 false].
Proof.
  intros x h m Hx Hn. rewrite (open_free _ m (reachable_Inv x h Hx) Hn). split; reflexivity.
Qed.

(* no reachable state lets an opener pass the data lock and fail the regions lock: the outcome of
   an open is decided at the data lock alone *)
Lemma no_half_open_thm : forall x h m, unlocked x ->
  match snd (open_files tl (Opener (next (run tl (init x) h))) m (files (run tl (init x) h))) with
  | RefusedAt FRegions => False
  | RefusedAt FData =>
      holder_alive (run tl (init x) h) /\
      fst (open_files tl (Opener (next (run tl (init x) h))) m (files (run tl (init x) h))) = files (run tl (init x) h)
  | Opened => ~ holder_alive (run tl (init x) h)
  end.
Proof.
  intros x h m Hx. pose proof (reachable_Inv x h Hx) as HI. set (s := run tl (init x) h) in *.
  destruct (holder_alive_dec s) as [Ha|Hn].
  - pose proof (refused_no_effect_thm x h m Hx Ha) as H. fold s in H. unfold step in H.
    destruct (open_files tl (Opener (next s)) m (files s)) as [x' [|f]]; inversion H; subst. cbn. auto.
  - pose proof (open_free s m HI Hn) as H. unfold step in H.
    destruct (open_files tl (Opener (next s)) m (files s)) as [x' [|f]]; [exact Hn|inversion H].
Qed.

(* once every handle, reader and background task of the holder is gone and its Files are closed,
   an open succeeds and sees exactly the content the holder flushed last, whatever happened in
   between, as long as nobody flushed again *)
Lemma after_release_thm : forall x h k c h2 m, unlocked x ->
  (exists i, find_inst k (insts (run tl (init x) h)) = Some i /\ 0 < i_handles i) ->
  Forall not_flush h2 ->
  ~ holder_alive (run tl (init x) (h ++ Flush k c :: h2)) ->
  snd (step tl (run tl (init x) (h ++ Flush k c :: h2)) (Open m)) =
    O_open_ok (next (run tl (init x) (h ++ Flush k c :: h2)))
      (grown (f_len (data (files (run tl (init x) (h ++ Flush k c :: h2))))) m)
      (f_len (regs (files (run tl (init x) (h ++ Flush k c :: h2))))) (Some c) /\
  insts (fst (step tl (run tl (init x) (h ++ Flush k c :: h2)) (Open m))) =
    [mkInst (next (run tl (init x) (h ++ Flush k c :: h2))) 1 0 0 false].
Proof.
  intros x h k c h2 m Hx [i [Hf Hh]] Hnf Hn.
  destruct (open_when_free_thm x (h ++ Flush k c :: h2) m Hx Hn) as [Ho Hi].
  split; [| exact Hi]. rewrite Ho. f_equal.
  rewrite run_app, run_cons, content_preserved_run by assumption.
  unfold step. rewrite Hf. apply N.ltb_lt in Hh. rewrite Hh. reflexivity.
Qed.

End Rule.

(* open (grows the file), flush, a reader and a background task outlive the last handle, a second
   opener is refused, then everything goes away and a third opener gets in and sees the flushed
   content *)
Definition example_history : list op :=
  [Open 100; Flush 0 7; MkReader 0; SpawnBg 0; DropHandle 0; Open 5000000; DropReader 0; Open 5000000;
   FinishBg 0; Open 9; ReleaseStep 0; Open 9; ReleaseStep 0; Open 2000000].

Example example_obs :
  run_obs flock_impl (init fresh) example_history =
  [O_open_ok 0 100 0 None; O_flushed; O_ok; O_ok; O_ok; O_open_err 1 FData GROW_FLOOR SIZE_OF_REGION_METADATA;
   O_joining; O_open_err 2 FData GROW_FLOOR SIZE_OF_REGION_METADATA; O_released;
   O_open_err 3 FData GROW_FLOOR SIZE_OF_REGION_METADATA; O_ok; O_open_err 4 FData GROW_FLOOR SIZE_OF_REGION_METADATA; O_ok;
   O_open_ok 5 2000000 SIZE_OF_REGION_METADATA (Some 7)].
Proof. vm_compute. reflexivity. Qed.

Lemma flock_rule_satisfiable : flock_rule flock_impl.
Proof.
  split; intros holders me H; unfold flock_impl.
  - destruct H as [o [Hin Hne]]. destruct (forallb _ holders) eqn:E; [| reflexivity].
    rewrite forallb_forall in E. specialize (E o Hin). apply owner_eqb_eq in E. contradiction.
  - apply forallb_forall. intros o Hin. apply owner_eqb_eq. apply H, Hin.
Qed.

Section Proofs.
Variable tl : list owner -> owner -> bool.
Hypothesis flock_excl : forall holders me, (exists o, In o holders /\ o <> me) -> tl holders me = false.
Hypothesis flock_free : forall holders me, (forall o, In o holders -> o = me) -> tl holders me = true.

Theorem exclusive : forall x h, unlocked x ->
  let s := run tl (init x) h in
  (length (insts s) + length (closing s) <= 1)%nat.
Proof using tl flock_excl flock_free. exact (exclusive_thm tl (conj flock_excl flock_free)). Qed.

End Proofs.
