(* Non-vacuity of the crash-monitor theorems.  `good_trace` is hand-written (its creates write their
   slot at once, which Regions::create and the events of AllocEvents.v do not; a trace of the model
   is AllocDisciplinedAll.ex_history); the monitor accepts it, so the hypotheses of `C05_os_proof`,
   `C05_lib_proof` and `C12_punch_safe_proof` are satisfiable, with untouched flushed regions
   present.  `bad_trace` and its variants: the behaviour before fix f53a575, rejected. *)
From Anydb Require Import Common.Base Rawdb.Crash
  Rawdb.CrashLibDefs.

Definition fx : content := fun a => 1 + a mod 251.

(* create r1 r2; write both; flush; remove r1; flush (no dirty region: metadata sync, then
   promote); create r3 on the promoted extent (slot 0 again); write r3; grow r2 in place (last
   region); create r4 elsewhere; flush; compact (punches r4's empty reserve, data sync); write r4 *)
Definition good_trace : list cev :=
  [ CSetLen 1048576;
    COp [1]; CMeta 0 (Some (0, 0, 4096, 1)); CEnd;
    COp [2]; CMeta 1 (Some (4096, 0, 4096, 2)); CEnd;
    COp [1]; CData 0 100 fx; CMeta 0 (Some (0, 100, 4096, 1)); CEnd;
    COp [2]; CData 4096 50 fx; CMeta 1 (Some (4096, 50, 4096, 2)); CEnd;
    COp []; CDataSync; CMetaSync; CPromote; CFlushed;
    COp [1]; CMeta 0 None; CEnd;
    COp []; CMetaSync; CPromote; CFlushed;
    COp [3]; CMeta 0 (Some (0, 0, 4096, 3)); CEnd;
    COp [3]; CData 0 200 fx; CMeta 0 (Some (0, 200, 4096, 3)); CEnd;
    COp [2]; CData 4146 5000 fx; CMeta 1 (Some (4096, 5050, 8192, 2)); CEnd;
    COp [4]; CMeta 2 (Some (12288, 0, 4096, 4)); CEnd;
    COp []; CDataSync; CMetaSync; CPromote; CFlushed;
    COp []; CPromote; CPunch 12288 4096; CDataSync; CFlushed;
    COp [4]; CData 12288 10 fx; CMeta 2 (Some (12288, 10, 4096, 4)); CEnd ].

Example good_trace_accepted : snd (mon_run mon_init good_trace) = true.
Proof. vm_compute. reflexivity. Qed.

Example good_trace_no_bad_event : mon_first_bad mon_init good_trace 0 = None.
Proof. vm_compute. reflexivity. Qed.

(* only r4 was addressed since the last completed flush (= the compaction): slots 0 and 1 are
   "untouched" in the sense of C05_os *)
Example good_trace_has_untouched :
  let m := fst (mon_run mon_init good_trace) in
  match m_flushed m with
  | Some (fl, _) => map fst fl = [0; 1; 2]
                    /\ map (fun p => mem_in (sr_id (snd p)) (m_touched m)) fl = [false; false; true]
  | None => False
  end.
Proof. vm_compute. split; reflexivity. Qed.

(* the hypothesis of C12_punch_safe *)
Example good_trace_punch_idle :
  m_cur (fst (mon_run mon_init (firstn 48 good_trace))) = []
  /\ nth_error good_trace 48 = Some (CPunch 12288 4096).
Proof. vm_compute. split; reflexivity. Qed.

(* before fix f53a575.  r1 [0,8192) (slot 0), r2 [8192,12288) (slot 1), r3 [12288,16384) (slot 2), flushed; r1 removed *)
Definition prefix_bad : list cev :=
  [ CSetLen 1048576;
    COp [1]; CMeta 0 (Some (0, 0, 4096, 1)); CEnd;
    COp [1]; CData 0 5000 fx; CMeta 0 (Some (0, 5000, 8192, 1)); CEnd;
    COp [2]; CMeta 1 (Some (8192, 0, 4096, 2)); CEnd;
    COp [3]; CMeta 2 (Some (12288, 0, 4096, 3)); CEnd;
    COp [2]; CData 8192 100 fx; CMeta 1 (Some (8192, 100, 4096, 2)); CEnd;
    COp []; CDataSync; CMetaSync; CPromote; CFlushed;
    COp [1]; CMeta 0 None; CEnd ].

(* r2 outgrows its reserve and is relocated into the "hole" [0,8192): copy, write, metadata *)
Definition relocate_r2 : list cev :=
  [ COp [2]; CData 0 100 fx; CData 100 5000 fx; CMeta 1 (Some (0, 5100, 8192, 2)); CEnd ].

(* the literal trace of the code before fix f53a575: flush() found no dirty region, promoted the
   pending hole WITHOUT syncing the regions file and returned Ok: M6 rejects the CFlushed event *)
Definition bad_trace : list cev := prefix_bad ++ [COp []; CPromote; CFlushed] ++ relocate_r2.

Example bad_trace_rejected_at_flush :
  exists k, mon_first_bad mon_init bad_trace 0 = Some k /\ nth_error bad_trace (N.to_nat k) = Some CFlushed.
Proof. eexists. split; vm_compute; reflexivity. Qed.

(* without the completion marker (M6 out of the picture) the reuse itself is rejected: the copy
   into the promoted extent hits the content of slot 0's still-durable version (M3) ... *)
Definition bad_trace_data : list cev := prefix_bad ++ [COp []; CPromote; CEnd] ++ relocate_r2.

Example bad_trace_rejected_at_data :
  exists k, mon_first_bad mon_init bad_trace_data 0 = Some k
            /\ match nth_error bad_trace_data (N.to_nat k) with Some (CData 0 100 _) => True | _ => False end.
Proof. eexists. split; [vm_compute; reflexivity|vm_compute; exact I]. Qed.

(* ... and, data events aside, the new metadata of slot 1 collides with slot 0's still-durable
   extent (M1) *)
Definition bad_trace_meta : list cev :=
  prefix_bad ++ [COp []; CPromote; CEnd; COp [2]; CMeta 1 (Some (0, 100, 8192, 2)); CEnd].

Example bad_trace_rejected_at_meta :
  exists k, mon_first_bad mon_init bad_trace_meta 0 = Some k
            /\ match nth_error bad_trace_meta (N.to_nat k) with Some (CMeta 1 (Some _)) => True | _ => False end.
Proof. eexists. split; [vm_compute; reflexivity|vm_compute; exact I]. Qed.

(* with the fix: metadata sync before the promotion *)
Definition fixed_trace : list cev := prefix_bad ++ [COp []; CMetaSync; CPromote; CFlushed] ++ relocate_r2.

Example fixed_trace_accepted : snd (mon_run mon_init fixed_trace) = true.
Proof. vm_compute. reflexivity. Qed.

(* the LIB-mode hypotheses, at the last sync pair of good_trace (events 42, 43) and slot 0 (r3) *)
Example good_trace_lib_hyps :
  let tc := firstn 44 good_trace in
  let t1 := skipn 44 good_trace in
  skipn 42 tc = [CDataSync; CMetaSync]
  /\ no_metasync t1 = true
  /\ not_overwritten (dur_of (fst (mon_run mon_init tc)) 0) t1 = true
  /\ dur_of (fst (mon_run mon_init tc)) 0 = Some (0, 200, 4096, 3).
Proof. vm_compute. repeat split; reflexivity. Qed.

(* why CFlushed keeps the ids of an operation still in progress in m_touched (Crash.v, mon_step):
   here the completion marker arrives while operation [1] is current, and the operation then
   overwrites r1's flushed bytes; M3 allows that (the slot is addressed).  r1 must therefore not
   count as untouched: the image below differs from the flushed bytes on r1's content.  Were
   m_touched reset to [] at CFlushed, this trace would be accepted all the same and C05_os_full
   would claim img 0 = fmem 0 for it. *)
Definition reflush_trace : list cev :=
  [ CSetLen 8192; COp [1]; CMeta 0 (Some (0, 10, 4096, 1)); CData 0 10 fx; CDataSync; CMetaSync; CFlushed;
    CData 0 5 (fun _ => 0) ].

Example flush_inside_operation :
  let m := fst (mon_run mon_init reflush_trace) in
  snd (mon_run mon_init reflush_trace) = true
  /\ mem_in 1 (m_touched m) = true
  /\ exists img, os_data m img
       /\ match m_flushed m with
          | Some (fl, fmem) => assoc_get 0 fl = Some (0, 10, 4096, 1) /\ img 0 <> fmem 0
          | None => False
          end.
Proof.
  cbv zeta. split; [vm_compute; reflexivity|]. split; [vm_compute; reflexivity|].
  exists (fun a => if a <? 5 then 0 else m_dmem (fst (mon_run mon_init reflush_trace)) a). split.
  - intros a. cbv beta. destruct (a <? 5) eqn:E; [right|left; reflexivity].
    exists 0, 5, (fun _ => 0). split; [vm_compute; left; reflexivity|]. split; [lia|reflexivity].
  - vm_compute. split; [reflexivity|intros H; discriminate H].
Qed.
