(* Induction over histories: `step_covered`, the step lemma `step_ok` for every operation of crash
   traces in every outcome; from it the monitor accepts the trace of every history with
   `forallb crash_op ops = true`, and the theorems of CrashSound.v and CrashLib.v apply to it.  The
   two C05 `_partial_proof` forms are the same statements over `covered_run`, which holds of the
   same histories (`covered_of_crash_ops`); `C12_all_histories_partial_proof` is partial in another
   way (comment there). *)
From Anydb Require Import Common.Base Rawdb.Alloc Rawdb.AllocInv
  Rawdb.AllocFacts Rawdb.InvRun
  Rawdb.Crash Rawdb.CrashFacts Rawdb.CrashInv Rawdb.CrashSound Rawdb.CrashLibDefs Rawdb.CrashLib Rawdb.CrashCompact Rawdb.AllocEvents Rawdb.AllocDisciplined
  Rawdb.AllocDisciplinedOps Rawdb.AllocDisciplinedSync Rawdb.AllocDisciplinedWrite
  Rawdb.AllocDisciplinedCompact Rawdb.AllocDisciplinedRetain.

(* AllocEvents.crash_op as a Prop (`covered_of_crash_ops`).  The step lemma below holds for each such
   operation in every outcome: all paths of write_with, every subset of punched candidates in
   compact, refused requests and panics. *)
Definition covered_op (s : st) (o : op) : Prop :=
  match o with
  | Reopen | SetMinRegions _ => False
  | _ => True
  end.

Fixpoint covered_run (s : st) (ops : list op) : Prop :=
  match ops with
  | [] => True
  | o :: t => covered_op s o /\ covered_run (fst (step_total s o)) t
  end.

Theorem step_covered orc s o : Inv s -> covered_op s o -> step_ok orc s o.
Proof.
  intros HI Hc. destruct o; try destruct Hc.
  - now apply ok_create.
  - now apply (ok_write orc s _ id f n None false).
  - now apply (ok_write orc s _ id f n (Some at_) false).
  - now apply (ok_write orc s _ id f n (Some at_) true).
  - now apply ok_truncate.
  - now apply ok_rename.
  - now apply ok_remove.
  - now apply ok_drop.
  - now apply ok_retain.
  - now apply ok_flush.
  - now apply ok_flush_region.
  - now apply ok_compact.
  - now apply ok_set_min_len.
Qed.

Lemma run_covered orcs ops : forall k s,
  Inv s -> covered_run s ops -> triple (Cpl s) (run_events_o orcs k s ops) (fun _ => True).
Proof.
  induction ops as [|o t IH]; intros k s HI Hc; cbn [run_events_o covered_run] in *.
  - apply (triple_post _ (Cpl s)); [apply triple_nil|auto].
  - apply (triple_app _ (Cpl (fst (step_total s o)))); [exact (step_covered (orcs k) s o HI (proj1 Hc))|].
    apply IH; [apply inv_step; exact HI|exact (proj2 Hc)].
Qed.

Lemma cpl_init min_len : Cpl (init min_len) (fst (mon_step mon_init (CSetLen min_len))).
Proof.
  constructor; cbn [mon_step fst m_len m_cur m_flushed m_pend m_pdata mon_init].
  - reflexivity.
  - reflexivity.
  - intros i. unfold rf, get, init. cbn [rfile]. destruct (N.to_nat i); reflexivity.
  - intros j w a [H|[]]. discriminate.
  - exact I.
  - intros i v [].
  - intros off len f j mj [].
Qed.

(* the second half is for C12 (AllocDisciplinedPunch.v) *)
Lemma trace_covered orcs min_len ops :
  covered_run (init min_len) ops ->
  snd (mon_run mon_init (trace_of_o orcs min_len ops)) = true /\ idle_punches mon_init (trace_of_o orcs min_len ops).
Proof.
  intros Hc. unfold trace_of_o. rewrite mon_run_cons.
  assert (Hs : snd (mon_step mon_init (CSetLen min_len)) = true) by (cbn [mon_step snd mon_init m_len]; lia).
  rewrite Hs. destruct (run_covered orcs ops 0 _ (AllocFacts.inv_init min_len) Hc _ (K_step _ _ K_init Hs) (cpl_init min_len))
    as (Hok & _ & Hi).
  split; [exact Hok|split; [exact I|exact Hi]].
Qed.

(* orcs: every outcome of approx_has_punchable_data *)
Theorem C05_model_disciplined_partial_proof :
  forall orcs min_len ops, covered_run (init min_len) ops ->
    snd (mon_run mon_init (trace_of_o orcs min_len ops)) = true.
Proof. intros orcs min_len ops Hc. exact (proj1 (trace_covered orcs min_len ops Hc)). Qed.

Theorem C05_all_histories_partial_proof :
  forall orcs min_len ops, covered_run (init min_len) ops ->
  forall t1 t2, trace_of_o orcs min_len ops = t1 ++ t2 ->
    let m := fst (mon_run mon_init t1) in
    forall sigma img, os_slots m sigma -> os_data m img ->
      os_safe m sigma img.
Proof.
  intros orcs min_len ops Hc t1 t2 E. apply (C05_os_proof t1 t2). rewrite <- E.
  apply C05_model_disciplined_partial_proof. exact Hc.
Qed.

Lemma covered_of_crash_ops ops : forall s, forallb crash_op ops = true -> covered_run s ops.
Proof.
  induction ops as [|o t IH]; intros s H; cbn [covered_run forallb] in *; [exact I|].
  apply andb_true_iff in H. destruct H as [H1 H2]. split; [|apply IH; exact H2].
  destruct o; cbn [crash_op covered_op] in *; try exact I; discriminate.
Qed.

Theorem C05_model_disciplined_proof :
  forall orcs min_len ops, forallb crash_op ops = true ->
    snd (mon_run mon_init (trace_of_o orcs min_len ops)) = true.
Proof.
  intros orcs min_len ops H. apply C05_model_disciplined_partial_proof. apply covered_of_crash_ops. exact H.
Qed.

Lemma accepted_prefix orcs min_len ops t rest :
  forallb crash_op ops = true -> trace_of_o orcs min_len ops = t ++ rest -> snd (mon_run mon_init t) = true.
Proof.
  intros H E. apply (C05_model_disciplined_proof orcs min_len) in H. rewrite E in H.
  apply mon_run_app in H. tauto.
Qed.

Theorem C05_all_histories_proof :
  forall orcs min_len ops, forallb crash_op ops = true ->
  forall t1 t2, trace_of_o orcs min_len ops = t1 ++ t2 ->
    let m := fst (mon_run mon_init t1) in
    forall sigma img, os_slots m sigma -> os_data m img ->
      os_safe m sigma img.
Proof.
  intros orcs min_len ops H. apply C05_all_histories_partial_proof. apply covered_of_crash_ops. exact H.
Qed.

Theorem C05_all_histories_lib_general_proof :
  forall orcs min_len ops, forallb crash_op ops = true ->
  forall t0 t1 p rest, trace_of_o orcs min_len ops = t0 ++ t1 ++ lib_next p ++ rest ->
    no_metasync t1 = true ->
    let m0 := fst (mon_run mon_init t0) in
    let m := fst (mon_run mon_init (t0 ++ t1)) in
    forall i sigma img, lib_slots p m sigma -> lib_data p m img ->
      pdata_misses (dur_of m0 i) m0 = true ->
      not_overwritten (dur_of m0 i) t1 = true ->
      (sigma i = dur_of m0 i /\ agree_on (sigma i) img (m_dmem m0))
      \/ (p = LInMetaSync /\ sigma i = latest_of m i /\ agree_on (sigma i) img (m_vmem m)).
Proof.
  intros orcs min_len ops H t0 t1 p rest E Hnm.
  apply (C05_lib_general_proof t0 t1 p); [|exact Hnm].
  apply (accepted_prefix orcs min_len ops _ rest H). rewrite E, <- !app_assoc. reflexivity.
Qed.

Theorem C05_all_histories_lib_proof :
  forall orcs min_len ops, forallb crash_op ops = true ->
  forall t0 t1 p rest,
    let tc := t0 ++ [CDataSync; CMetaSync] in
    trace_of_o orcs min_len ops = tc ++ t1 ++ lib_next p ++ rest ->
    no_metasync t1 = true ->
    let m0 := fst (mon_run mon_init tc) in
    let m := fst (mon_run mon_init (tc ++ t1)) in
    forall i sigma img, lib_slots p m sigma -> lib_data p m img ->
      not_overwritten (dur_of m0 i) t1 = true ->
      (sigma i = dur_of m0 i /\ agree_on (sigma i) img (m_vmem m0))
      \/ (p = LInMetaSync /\ sigma i = latest_of m i /\ agree_on (sigma i) img (m_vmem m)).
Proof.
  intros orcs min_len ops H t0 t1 p rest tc E Hnm.
  apply (C05_lib_proof t0 t1 p); [|exact Hnm]. fold tc.
  apply (accepted_prefix orcs min_len ops _ rest H). rewrite E, <- !app_assoc. reflexivity.
Qed.

(* non-vacuity: writes (in place, relocation), renames, Region::flush, remove, compact, flush
   without dirty region (metadata sync, then promotion: fix f53a575), retain_regions, reuse of the
   promoted extent by a new region whose metadata then reaches the regions file *)
Definition ex_history : list op :=
  [ Create 1 false; Create 2 false; Write 1 (fun _ => 7) 100; Write 1 (fun _ => 7) 5000; Rename 1 3; Rename 2 4; Flush;
    WriteAt 3 (fun _ => 9) 10 20; FlushRegion 3; Remove 3; Compact;
    Create 5 false; Create 6 false; Rename 6 7; Remove 4; SetMinLen 5000000; Flush; Rename 5 8; Retain [8]; Flush ].

Example ex_history_covered : covered_run (init 0) ex_history.
Proof. apply covered_of_crash_ops. reflexivity. Qed.

Example ex_history_crash_ops : forallb crash_op ex_history = true.
Proof. reflexivity. Qed.

Example ex_history_trace_nontrivial :
  existsb (fun e => match e with CMetaSync => true | _ => false end) (trace_of 0 ex_history) = true
  /\ existsb (fun e => match e with CMeta 0 (Some (0, 0, 4096, 8)) => true | _ => false end) (trace_of 0 ex_history) = true
  /\ existsb (fun e => match e with CPunch _ _ => true | _ => false end) (trace_of 0 ex_history) = true.
Proof. vm_compute. repeat split; reflexivity. Qed.

(* C12 on every history of the model, with one hypothesis too many: no operation ids are current at
   the punch.  In the model's traces they never are (punches occur only inside compact, whose COp
   names no id): the second half of `trace_covered`, with which
   AllocDisciplinedPunch.C12_all_histories_proof drops the hypothesis. *)
Theorem C12_all_histories_partial_proof :
  forall orcs min_len ops, forallb crash_op ops = true ->
  forall t1 off len t2, trace_of_o orcs min_len ops = t1 ++ CPunch off len :: t2 ->
    let m := fst (mon_run mon_init t1) in
    m_cur m = [] ->
    forall i v, In (Some v) (possible m i) -> disjoint off len (sr_start v) (sr_len v) = true.
Proof.
  intros orcs min_len ops H t1 off len t2 E. apply (CrashCompact.C12_punch_safe_proof t1 off len t2).
  rewrite <- E. apply C05_model_disciplined_proof. exact H.
Qed.
