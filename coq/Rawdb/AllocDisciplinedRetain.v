(* Database::retain_regions zeroes the slots of all removed regions inside one operation bracket: the
   body of a remove (ms_body), once per removed region. *)
From Anydb Require Import Common.Base Rawdb.Alloc Rawdb.AllocInv
  Rawdb.CoverFacts Rawdb.AllocErr Rawdb.InvRemove
  Rawdb.Crash Rawdb.CrashFacts Rawdb.CrashInv Rawdb.AllocEvents Rawdb.AllocDisciplined
  Rawdb.AllocDisciplinedOps.

(* l = the slots from i0 on, as they are in sc; ids names every written region from i0 on that is not kept.
   An induction of its own beside AllocOutcome.retain_from_shape: the monitor state moves with every
   removal, and retain_from_shape carries a property of the allocator state only. *)
Lemma retain_body keep ids l : forall sc i0 s',
  Inv sc -> table_from sc i0 l ->
  (forall j mj v, i0 <= j -> slot sc j = Some mj -> in_keep keep mj = false -> rf sc j = Some v ->
     mem_in (sr_id v) ids = true) ->
  retain_from l sc keep i0 = AOk s' ->
  triple (CplIn ids sc) (retain_events l keep i0) (CplIn ids s').
Proof.
  induction l as [|o t IH]; intros sc i0 s' HIc Hl Hid E.
  { injection E as <-. apply triple_nil. }
  assert (Hskip : retain_from t sc keep (i0 + 1) = AOk s' ->
            triple (CplIn ids sc) (retain_events t keep (i0 + 1)) (CplIn ids s')).
  { apply IH; try assumption; [apply (table_from_tail sc sc i0 o t Hl); reflexivity|].
    intros j mj v Hj. apply Hid. lia. }
  pose proof (Hl i0 (N.le_refl _)) as Hs. rewrite N.sub_diag in Hs. change (get (o :: t) 0) with (Some o) in Hs.
  destruct o as [m0|]; cbn [retain_from retain_events] in *; [|exact (Hskip E)].
  change (existsb (fun x => x =? r_id m0) keep) with (in_keep keep m0) in E.
  destruct (in_keep keep m0) eqn:Ek; [exact (Hskip E)|].
  destruct (remove_idx sc i0) as [s1| |] eqn:Er; cbn [abind] in E; try discriminate.
  apply (remove_idx_ok sc i0 m0 s1 (inv_s2r_ok sc HIc) Hs) in Er. subst s1. destruct (removed_inv sc i0 m0 HIc Hs) as [HI1 _].
  pose proof (MS_removed sc i0 m0 ids HIc Hs (fun v => Hid i0 m0 v (N.le_refl _) Hs Ek)) as HM.
  apply (triple_app _ (CplIn ids (removed sc i0 m0)) _ [CMeta i0 None]).
  - generalize (ms_body sc (removed sc i0 m0) ids [] i0 (Some None) HIc HI1 HM).
    unfold meta_body, len_ev. now rewrite N.eqb_refl.
  - apply (IH (removed sc i0 m0) (i0 + 1) s'); try assumption.
    + apply (table_from_tail sc _ i0 (Some m0) t Hl). intros j Hj. apply (ms_frame HM). lia.
    + intros j mj v Hj. destruct (ms_frame HM j) as [-> ->]; [lia|]. apply Hid. lia.
Qed.

Lemma retain_ids_in l keep mj :
  In (Some mj) l -> in_keep keep mj = false -> r_state mj <> ST_WRITE -> In (r_id mj) (retain_ids l keep).
Proof.
  induction l as [|[m0|] t IH]; intros Hin Hk Hst; cbn [retain_ids]; [destruct Hin| |].
  - destruct Hin as [E|Hin].
    + injection E as ->. rewrite Hk. replace (r_state mj =? ST_WRITE) with false by lia. left. reflexivity.
    + destruct (in_keep keep m0 || (r_state m0 =? ST_WRITE)); [|right]; apply IH; assumption.
  - destruct Hin as [E|Hin]; [discriminate|]. apply IH; assumption.
Qed.

Theorem ok_retain orc s keep : Inv s -> step_ok orc s (Retain keep).
Proof.
  intros HI. destruct (retain s keep) as [[s' r]|s1 e|] eqn:E.
  2:{ apply (ok_of_err orc s _ e HI). cbn [step]. now rewrite E, (retain_err s keep s1 e HI E). }
  2:{ now apply ok_of_panic. }
  unfold step_ok, step_total, step_events_o, closer. cbn [step op_ids body_events]. rewrite E. cbn [fst app].
  unfold retain in E. destruct (retain_blocked s keep); [discriminate|].
  destruct (retain_from (slots s) s keep 0) as [s1| |] eqn:Er; cbn [abind] in E; try discriminate.
  injection E as <- <-. apply (triple_post _ (Cpl s1)); [|intros m; apply cpl_set_held].
  apply bracket_sound, (retain_body keep _ (slots s) s 0 s1 HI); [| |exact Er].
  - intros j _. unfold slot. now rewrite N.sub_0_r.
  - intros j mj v _ Hj Hkeep Hv. destruct (rf_some_slot s _ v HI Hv) as (m0 & Hs0 & Hst & <-).
    rewrite Hj in Hs0. injection Hs0 as <-. apply mem_in_In.
    exact (retain_ids_in (slots s) keep mj (slot_in_slots s _ mj Hj) Hkeep Hst).
Qed.
