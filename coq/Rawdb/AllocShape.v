(* Rawdb/AllocShape.v — create, relocate and write_with cut where the placement is decided: both
   placing operations take the smallest adequate hole or else append at the end of the layout (`place`).
   `create_tail`, `reloc_tail` and `grow_path` repeat text of Alloc.create / relocate / write_with: after a
   change there, `create_eq`, `relocate_eq` and `write_with_unfold` fail at their `reflexivity` until
   the copy here follows. *)
From Anydb Require Import Common.Base Gen.Consts Rawdb.AMap Rawdb.Alloc.

Lemma set_min_len_eq s n : set_min_len s n = set_file_len s (file_len (set_min_len s n)).
Proof. unfold set_min_len. destruct (_ <=? _); [destruct s|]; reflexivity. Qed.

Lemma find_hole_set_min_len s n k : find_hole (set_min_len s n) k = find_hole s k.
Proof. unfold set_min_len. destruct (_ <=? _); reflexivity. Qed.

Definition place (s : st) (p : N) : ares (st * N) :=
  match find_hole s p with
  | Some a => let* s' := remove_or_compress_hole s a p in AOk (s', a)
  | None => AOk (set_min_len s (layout_len s + p), layout_len s)
  end.

Lemma roc_shape s a by_ s' :
  remove_or_compress_hole s a by_ = AOk s' \/ (exists e, remove_or_compress_hole s a by_ = AErr s' e) ->
  exists H Q, s' = set_holes s H Q.
Proof.
  unfold remove_or_compress_hole, remove_hole. destruct (aget a (holes s)) as [z|].
  - destruct (z =? by_); [|destruct (by_ <? z)]; intros [E|[e E]]; inversion E; unfold insert_hole; eexists; eexists; reflexivity.
  - intros [[= <-]|[e [= <- _]]]; exists (holes s), (h2s s); destruct s; reflexivity.
Qed.

Definition create_tail (s2 : st) (start id : N) : ares (st * out) :=
  let i := first_free (slots s2) 0 in
  let m := mkR start NEW_REGION_LEN NEW_REGION_RESERVED id ST_WRITE u64_max 0 in
  let rf := if len (rfile s2) <? i + 1 then rfile s2 ++ repeat None (N.to_nat (i + 1 - len (rfile s2))) else rfile s2 in
  let s3 := put_slot (set_rfile s2 rf) i (Some m) in
  match layout_insert_region s3 start i with
  | Some s4 => AOk (s4, OUnit)
  | None => APanic
  end.

(* the code grows the file before it looks for the hole a second time; the second search finds
   what the first found *)
Lemma create_eq s id hold :
  create s id hold =
  let s0 := if hold then set_held s (id :: held s) else s in
  match find_id s0 id with
  | Some _ => AOk (s0, OUnit)
  | None => let* (s2, start) := place s0 PAGE_SIZE in create_tail s2 start id
  end.
Proof.
  unfold create, place. cbv zeta. set (s0 := if hold then _ else s).
  destruct (find_id s0 id); [reflexivity|]. destruct (find_hole s0 PAGE_SIZE) eqn:E.
  - rewrite E. reflexivity.
  - rewrite find_hole_set_min_len, E, set_min_len_eq. reflexivity.
Qed.

Definition reloc_meta (ns nr new_len : N) (m : rmeta) : rmeta :=
  m_set_len (m_set_reserved (m_set_start (m_mark_dirty m 0 new_len) ns) nr) new_len.
Definition in_place_meta (nr wo n nl : N) (m : rmeta) : rmeta :=
  m_set_len (m_mark_dirty (m_set_reserved m nr) wo n) nl.

Definition reloc_tail (s1 : st) (i : N) (m : rmeta) (f : N -> N) (n wo new_len nr cl ns : N) : ares (st * out) :=
  let* s2 := db_copy s1 (r_start m) ns cl in
  match db_write s2 (ns + wo) f n with
  | None => APanic
  | Some s3 =>
      let* s4 := layout_remove_region s3 i m in
      match layout_insert_region s4 ns i with
      | None => APanic
      | Some s5 =>
          match aget ns (resv s5) with
          | Some z =>
              if negb (z =? nr) then APanic else
              let s6 := set_resv s5 (arem ns (resv s5)) in
              if negb (ok_set_start ns) then APanic else
              if negb (ok_set_reserved m nr) then APanic else
              if negb (new_len <=? nr) then APanic else
              let s7 := upd s6 i (reloc_meta ns nr new_len) in
              AOk (write_if_dirty s7 i, OUnit)
          | None => APanic
          end
      end
  end.

(* outside a write there are no reservations, and Layout::reserve cannot fail *)
Lemma relocate_eq s i m f n wo new_len nr cl :
  resv s = [] ->
  relocate s i m f n wo new_len nr cl =
  let* (sb, ns) := place s nr in reloc_tail (set_resv sb [(ns, nr)]) i m f n wo new_len nr cl ns.
Proof.
  intros Hr. unfold relocate, place. destruct (find_hole s nr) as [hs|].
  - destruct (remove_or_compress_hole s hs nr) as [s'| |] eqn:Er; cbn [abind]; try reflexivity.
    destruct (roc_shape _ _ _ _ (or_introl Er)) as (H & Q & ->). cbn [resv set_holes]. rewrite Hr. reflexivity.
  - cbv zeta. rewrite Hr. cbn [aget ains abind]. do 2 f_equal.
    unfold set_min_len. cbn [file_len set_resv]. destruct (_ <=? _); reflexivity.
Qed.

Definition w_off (at_ : option N) (ln : N) : N := match at_ with Some a => a | None => ln end.
Definition w_len (at_ : option N) (tr : bool) (ln n : N) : N :=
  match at_ with
  | None => ln + n
  | Some a => if tr then a + n else N.max (a + n) ln
  end.
Definition w_oob (at_ : option N) (ln : N) : bool := match at_ with Some a => ln <? a | None => false end.

Lemma w_off_len at_ tr ln n : w_oob at_ ln = false -> w_off at_ ln <= ln /\ w_off at_ ln + n <= w_len at_ tr ln n.
Proof. unfold w_oob, w_off, w_len. destruct at_; [destruct tr|]; lia. Qed.

Definition grow_path (s : st) (i : N) (m : rmeta) (f : N -> N) (n wo nl nr cl : N) : ares (st * out) :=
  if is_last_anything s i then
    if negb (ok_set_reserved m nr) then APanic else
    finish_write (set_min_len (upd s i (fun m => m_set_reserved m nr)) (r_start m + nr)) i (r_start m) wo f n nl
  else
    match aget (r_start m + r_reserved m) (holes s) with
    | Some gap =>
        if nr - r_reserved m <=? gap then
          let* s1 := remove_or_compress_hole s (r_start m + r_reserved m) (nr - r_reserved m) in
          if negb (ok_set_reserved m nr) then APanic else
          finish_write (upd s1 i (fun m => m_set_reserved m nr)) i (r_start m) wo f n nl
        else relocate s i m f n wo nl nr cl
    | None => relocate s i m f n wo nl nr cl
    end.

Lemma write_with_unfold s i m f n at_ tr :
  slot s i = Some m ->
  write_with s i f n at_ tr =
  if w_oob at_ (r_len m) then AErr s WriteOutOfBounds else
  let wo := w_off at_ (r_len m) in
  let nl := w_len at_ tr (r_len m) n in
  if nl <=? r_reserved m then
    match db_write s (r_start m + wo) f n with
    | None => APanic
    | Some s1 =>
        let s2 := upd s1 i (fun m => m_mark_dirty m wo n) in
        if nl =? r_len m then AOk (s2, OUnit)
        else AOk (write_if_dirty (upd s2 i (fun m => m_set_len m nl)) i, OUnit)
    end
  else if r_reserved m =? 0 then AErr s InvariantViolation
  else match double_until 64 (r_reserved m) nl with
       | Err e => AErr s e
       | Panic => APanic
       | Ok nr => grow_path s i m f n wo nl nr (if tr then wo else r_len m)
       end.
Proof. intros Hs. unfold write_with. rewrite Hs. reflexivity. Qed.
