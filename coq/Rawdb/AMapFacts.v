(* Rawdb/AMapFacts.v — the functions of AMap.v specified over lists that are `AllocInv.asorted`,
   read through `asorted_cons`. *)
From Anydb Require Import Common.Base Rawdb.AMap Rawdb.AllocInv.

Section AMapFacts.
Context {V : Type}.
Implicit Types (m t : amap V) (k : N) (v : V).

Definition alb k m : Prop := forall k' v', In (k', v') m -> k < k'.

Lemma asorted_cons k v t : asorted ((k, v) :: t) <-> alb k t /\ asorted t.
Proof.
  revert k v. induction t as [|[k1 v1] t IH]; intros k v.
  - cbn. split; [intros _; split; [intros k' v' []|exact I]|intros _; exact (conj I I)].
  - change (asorted ((k, v) :: (k1, v1) :: t)) with (k < k1 /\ asorted ((k1, v1) :: t)).
    rewrite (IH k1 v1). unfold alb. split.
    + intros (H1 & H2 & H3). split; [|split; assumption].
      intros k' v' [E|HI]; [inversion E; subst; assumption|].
      specialize (H2 _ _ HI). lia.
    + intros (H1 & H2). split; [apply (H1 k1 v1); left; reflexivity|exact H2].
Qed.

Lemma asorted_nil : asorted (@nil (N * V)).
Proof. exact I. Qed.

Lemma aget_in k v m : aget k m = Some v -> In (k, v) m.
Proof.
  induction m as [|[k1 v1] t IH]; cbn [aget]; [discriminate|].
  destruct (k =? k1) eqn:E.
  - intros [= <-]. left. f_equal. lia.
  - intros H. right. auto.
Qed.

Lemma alb_aget k m : alb k m -> aget k m = None.
Proof.
  induction m as [|[k1 v1] t IH]; intros H; cbn [aget]; [reflexivity|].
  destruct (k =? k1) eqn:E.
  - specialize (H k1 v1 (or_introl eq_refl)). lia.
  - apply IH. intros k' v' HI. apply (H k' v'). right. exact HI.
Qed.

Lemma in_aget k v m : asorted m -> In (k, v) m -> aget k m = Some v.
Proof.
  induction m as [|[k1 v1] t IH]; [intros _ []|].
  rewrite asorted_cons. intros [Hlb Hs] [E|HI]; cbn [aget].
  - inversion E; subst. rewrite N.eqb_refl. reflexivity.
  - specialize (Hlb _ _ HI). destruct (k =? k1) eqn:E; [lia|]. auto.
Qed.

Lemma aget_none_in k v m : aget k m = None -> ~ In (k, v) m.
Proof.
  induction m as [|[k1 v1] t IH]; cbn [aget]; [intros _ []|].
  destruct (k =? k1) eqn:E; [discriminate|].
  intros H [E1|HI]; [inversion E1; lia|]. exact (IH H HI).
Qed.

Lemma in_key_aget k v m : In (k, v) m -> exists v', aget k m = Some v'.
Proof.
  induction m as [|[k1 v1] t IH]; [intros []|]. cbn [aget].
  intros [E|HI].
  - inversion E; subst. rewrite N.eqb_refl. eauto.
  - destruct (k =? k1); eauto.
Qed.

Lemma aget_ains k k' v m : aget k' (ains k v m) = if k' =? k then Some v else aget k' m.
Proof.
  induction m as [|[k1 v1] t IH]; cbn [ains aget]; [reflexivity|].
  destruct (N.ltb_spec k k1); [reflexivity|]. destruct (N.eqb_spec k k1) as [->|Hne]; cbn [aget].
  - destruct (k' =? k1); reflexivity.
  - rewrite IH. destruct (N.eqb_spec k' k1) as [->|]; [|reflexivity].
    destruct (N.eqb_spec k1 k) as [E|]; [now destruct Hne|reflexivity].
Qed.

Lemma in_ains x k v m : In x (ains k v m) -> x = (k, v) \/ In x m.
Proof.
  induction m as [|[k1 v1] t IH]; cbn [ains].
  - intros [E|[]]. left. auto.
  - destruct (k <? k1). { intros [E|HI]; auto. }
    destruct (k =? k1). { intros [E|HI]; auto. right. right. exact HI. }
    intros [E|HI]. { right. left. exact E. }
    destruct (IH HI); auto. right. right. assumption.
Qed.

Lemma in_ains_same k v m : In (k, v) (ains k v m).
Proof. apply aget_in. now rewrite aget_ains, N.eqb_refl. Qed.

Lemma in_ains_other k k' v v' m : In (k', v') m -> k' <> k -> In (k', v') (ains k v m).
Proof.
  intros HI Hne. induction m as [|[k1 v1] t IH]; [destruct HI|]. cbn [ains].
  destruct (k <? k1). { right. exact HI. }
  destruct (k =? k1) eqn:E.
  - destruct HI as [E1|HI]; [inversion E1; lia|]. right. exact HI.
  - destruct HI as [E1|HI]; [left; exact E1|]. right. auto.
Qed.

Lemma asorted_ains k v m : asorted m -> asorted (ains k v m).
Proof.
  induction m as [|[k1 v1] t IH]; cbn [ains].
  - intros _. cbn. auto.
  - intros Hs. pose proof Hs as Hs'. rewrite asorted_cons in Hs'. destruct Hs' as [Hlb Hst].
    destruct (k <? k1) eqn:E1.
    { rewrite asorted_cons. split; [|exact Hs].
      intros k' v' [E|HI]; [inversion E; subst; lia|]. specialize (Hlb _ _ HI). lia. }
    destruct (k =? k1) eqn:E2.
    { rewrite asorted_cons. split; [|exact Hst]. intros k' v' HI. specialize (Hlb _ _ HI). lia. }
    rewrite asorted_cons. split; [|auto]. intros k' v' HI. apply in_ains in HI.
    destruct HI as [E|HI]; [inversion E; subst; lia|]. eauto.
Qed.

Lemma in_arem x k m : In x (arem k m) -> In x m.
Proof.
  induction m as [|[k1 v1] t IH]; cbn [arem]; [auto|].
  destruct (k =? k1). { intros H. right. exact H. }
  intros [E|HI]; [left; exact E|right; auto].
Qed.

Lemma in_arem_other k k' v' m : In (k', v') m -> k' <> k -> In (k', v') (arem k m).
Proof.
  intros HI Hne. induction m as [|[k1 v1] t IH]; [destruct HI|]. cbn [arem].
  destruct (k =? k1) eqn:E.
  - destruct HI as [E1|HI]; [inversion E1; lia|exact HI].
  - destruct HI as [E1|HI]; [left; exact E1|right; auto].
Qed.

Lemma asorted_arem k m : asorted m -> asorted (arem k m).
Proof.
  induction m as [|[k1 v1] t IH]; cbn [arem]; [auto|].
  rewrite asorted_cons. intros [Hlb Hs].
  destruct (k =? k1); [exact Hs|]. rewrite asorted_cons. split; [|auto].
  intros k' v' HI. apply in_arem in HI. eauto.
Qed.

Lemma aget_arem_other k k' m : k <> k' -> aget k' (arem k m) = aget k' m.
Proof.
  intros Hne. induction m as [|[k1 v1] t IH]; cbn [arem aget]; [reflexivity|].
  destruct (k =? k1) eqn:E; cbn [aget].
  - destruct (k' =? k1) eqn:E2; [lia|reflexivity].
  - rewrite IH. reflexivity.
Qed.

Lemma aget_arem_same k m : asorted m -> aget k (arem k m) = None.
Proof.
  induction m as [|[k1 v1] t IH]; cbn [arem aget]; [reflexivity|].
  rewrite asorted_cons. intros [Hlb Hs].
  destruct (k =? k1) eqn:E; cbn [aget].
  - apply alb_aget. assert (k = k1) by lia. subst. exact Hlb.
  - rewrite E. auto.
Qed.

Lemma aget_arem k k' m : asorted m -> aget k' (arem k m) = if k' =? k then None else aget k' m.
Proof.
  intros Hs. destruct (k' =? k) eqn:E.
  - assert (k' = k) by lia. subst. now apply aget_arem_same.
  - apply aget_arem_other. lia.
Qed.

Lemma arem_absent k m : aget k m = None -> arem k m = m.
Proof.
  induction m as [|[k1 v1] t IH]; cbn [arem aget]; [reflexivity|].
  destruct (k =? k1); [discriminate|]. intros H. now rewrite IH.
Qed.

Lemma alast_in m x : alast m = Some x -> In x m.
Proof.
  induction m as [|y t IH]; cbn [alast]; [discriminate|].
  destruct t as [|z t']; [intros [= ->]; left; reflexivity|].
  intros H. right. exact (IH H).
Qed.

Lemma alast_none m : alast m = None -> m = [].
Proof.
  induction m as [|y t IH]; cbn [alast]; [reflexivity|].
  destruct t as [|z t']; [discriminate|]. intros H. specialize (IH H). discriminate.
Qed.

Lemma alast_max m k v k' v' : asorted m -> alast m = Some (k, v) -> In (k', v') m -> k' <= k.
Proof.
  induction m as [|[k1 v1] t IH]; [intros _ _ []|].
  rewrite asorted_cons. intros [Hlb Hs] Hl HI.
  destruct t as [|z t'].
  - cbn in Hl. injection Hl as -> ->. destruct HI as [E|[]]. inversion E. lia.
  - change (alast ((k1, v1) :: z :: t')) with (alast (z :: t')) in Hl.
    destruct HI as [E|HI].
    + inversion E; subst. apply alast_in in Hl. specialize (Hlb _ _ Hl). lia.
    + eauto.
Qed.

Lemma apred_some k m k' v' : apred k m = Some (k', v') -> In (k', v') m /\ k' < k.
Proof.
  induction m as [|[k1 v1] t IH]; cbn [apred]; [discriminate|].
  destruct (k1 <? k) eqn:E; [|discriminate].
  destruct (apred k t) as [x|] eqn:Ep.
  - intros [= ->]. destruct (IH eq_refl). split; [right|]; assumption.
  - intros [= -> ->]. split; [left; reflexivity|lia].
Qed.

Lemma apred_none k m k2 v2 : asorted m -> apred k m = None -> In (k2, v2) m -> k <= k2.
Proof.
  destruct m as [|[k1 v1] t]; [intros _ _ []|]. rewrite asorted_cons. cbn [apred]. intros [Hlb _].
  destruct (k1 <? k) eqn:E. { destruct (apred k t); discriminate. }
  intros _ [E2|HI]; [inversion E2; lia|]. specialize (Hlb _ _ HI). lia.
Qed.

Lemma apred_max k m k' v' k2 v2 :
  asorted m -> apred k m = Some (k', v') -> In (k2, v2) m -> k2 < k -> k2 <= k'.
Proof.
  induction m as [|[k1 v1] t IH]; cbn [apred]; [intros _ [=]|].
  rewrite asorted_cons. intros [Hlb Hs].
  destruct (k1 <? k) eqn:E; [|discriminate].
  destruct (apred k t) as [x|] eqn:Ep.
  - intros [= ->] [E2|HI] Hlt; [|eauto].
    inversion E2; subst. apply apred_some in Ep. destruct Ep as [Ep _]. specialize (Hlb _ _ Ep). lia.
  - intros [= -> ->] [E2|HI] Hlt; [inversion E2; lia|]. pose proof (apred_none _ _ _ _ Hs Ep HI). lia.
Qed.

Lemma afirst_geq_some k m k' v' : afirst_geq k m = Some (k', v') -> In (k', v') m /\ k <= k'.
Proof.
  induction m as [|[k1 v1] t IH]; cbn [afirst_geq]; [discriminate|].
  destruct (k <=? k1) eqn:E.
  - intros [= -> ->]. split; [left; reflexivity|lia].
  - intros H. destruct (IH H). split; [right|]; assumption.
Qed.

Lemma afirst_geq_min k m k' v' k2 v2 :
  asorted m -> afirst_geq k m = Some (k', v') -> In (k2, v2) m -> k <= k2 -> k' <= k2.
Proof.
  induction m as [|[k1 v1] t IH]; cbn [afirst_geq]; [intros _ [=]|].
  rewrite asorted_cons. intros [Hlb Hs].
  destruct (k <=? k1) eqn:E.
  - intros [= -> ->] [E2|HI] _; [inversion E2; lia|]. specialize (Hlb _ _ HI). lia.
  - intros H [E2|HI] Hle; [inversion E2; lia|]. eauto.
Qed.

Lemma afirst_geq_none k m k2 v2 : afirst_geq k m = None -> In (k2, v2) m -> k2 < k.
Proof.
  induction m as [|[k1 v1] t IH]; cbn [afirst_geq]; [intros _ []|].
  destruct (k <=? k1) eqn:E; [discriminate|].
  intros H [E2|HI]; [inversion E2; lia|]. eauto.
Qed.

End AMapFacts.

Lemma Forall_amap (P : ext -> Prop) (m : amap N) :
  (forall x v, aget x m = Some v -> P (x, v)) -> asorted m -> Forall P m.
Proof.
  intros H Hs. apply Forall_forall. intros [x v] HI. apply H. now apply in_aget.
Qed.

Lemma Forall_ains (P : ext -> Prop) k v (m : amap N) : Forall P m -> P (k, v) -> Forall P (ains k v m).
Proof.
  intros Hm Hk. apply Forall_forall. intros e HI. apply in_ains in HI. destruct HI as [->|HI]; [exact Hk|].
  rewrite Forall_forall in Hm. auto.
Qed.
