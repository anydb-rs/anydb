(* Rawdb/InvBool2.v — the checker of InvBool.v rejects three corrupted variants of the reachable state
   `ib_state`: file too short, hole missing from hole_to_starts, a pending hole over a region. *)
From Anydb Require Import Common.Base Gen.Consts Rawdb.Alloc Rawdb.AllocInv Rawdb.InvBool.

Definition ib_state : st :=
  run (init 0) [Create 1 false; Write 1 (gen_byte 1) 5000; Create 2 true; Remove 1; Flush;
                Create 3 false].

Example ib_state_shape :
  holes ib_state = [(PAGE_SIZE, PAGE_SIZE)] /\ layout_len ib_state = 3 * PAGE_SIZE.
Proof. vm_compute. split; reflexivity. Qed.

Example inv_b_rejects_short_file : ~ Inv (set_file_len ib_state 0).
Proof. apply inv_b_false. vm_compute. reflexivity. Qed.

Example inv_b_rejects_missing_h2s : ~ Inv (set_holes ib_state (holes ib_state) []).
Proof. apply inv_b_false. vm_compute. reflexivity. Qed.

Example inv_b_rejects_overlap : ~ Inv (set_pend ib_state [(0, PAGE_SIZE)]).
Proof. apply inv_b_false. vm_compute. reflexivity. Qed.
