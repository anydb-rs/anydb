(* Rawdb/InvReopenAux.v — `agrees`: AllocInv.h2s_agrees over two maps that need not sit in a state
   (HolesFacts builds on it); `s2r_of_spec`: start_to_region as `reopen` rebuilds it, for InvReopen. *)
From Anydb Require Import Common.Base Rawdb.AMap Rawdb.Alloc Rawdb.AllocInv
  Rawdb.AMapFacts Rawdb.CoverFacts.

Definition vmap {V W} (f : V -> W) (m : amap V) : amap W := map (fun kv => (fst kv, f (snd kv))) m.

Lemma vmap_ains {V W} (f : V -> W) k v m : vmap f (ains k v m) = ains k (f v) (vmap f m).
Proof.
  unfold vmap. induction m as [|[k1 v1] t IH]; cbn [ains map fst snd]; [reflexivity|].
  destruct (k <? k1); [reflexivity|]. destruct (k =? k1); [reflexivity|].
  cbn [map fst snd]. f_equal. exact IH.
Qed.

Lemma aget_vmap {V W} (f : V -> W) k m : aget k (vmap f m) = option_map f (aget k m).
Proof.
  unfold vmap. induction m as [|[k1 v1] t IH]; cbn [aget map fst snd option_map]; [reflexivity|].
  destruct (k =? k1); [reflexivity|exact IH].
Qed.

Definition agrees (H : amap N) (Q : amap (list N)) : Prop :=
  (forall start size, aget start H = Some size <-> exists l, aget size Q = Some l /\ In start l)
  /\ (forall size l, aget size Q = Some l -> l <> [] /\ NoDup l).

Lemma h2s_agrees_agrees s : h2s_agrees s <-> agrees (holes s) (h2s s).
Proof. reflexivity. Qed.

Lemma agrees_nil : agrees [] [].
Proof.
  split.
  - intros start size. split; [discriminate|]. intros (l & H & _). discriminate.
  - intros size l H. discriminate.
Qed.

(* `vmap (rsv sl)` turns a map start -> slot into the extents that `owners` counts *)
Definition rsv (sl : list (option rmeta)) (i : N) : N :=
  match get sl i with Some (Some m) => r_reserved m | _ => 0 end.

(* l is the table sl from index i on.  The loop invariant is the third premise: no start of a slot from i on is
   a key of acc yet, so every `ains` of the loop enters a new key (owners_ains_absent). *)
Lemma s2r_of_spec (sl : list (option rmeta)) :
  (forall j j' m m', get sl j = Some (Some m) -> get sl j' = Some (Some m') -> r_start m = r_start m' -> j = j') ->
  forall l i acc,
  (forall n, nth_opt l n = get sl (i + N.of_nat n)) ->
  (forall j m, i <= j -> get sl j = Some (Some m) -> aget (r_start m) acc = None) ->
  asorted acc ->
  asorted (s2r_of l i acc) /\
  (forall a j, aget a (s2r_of l i acc) = Some j <->
               aget a acc = Some j \/ (i <= j /\ exists m, get sl j = Some (Some m) /\ r_start m = a)) /\
  (forall a, owners (vmap (rsv sl) (s2r_of l i acc)) a
             = (owners (vmap (rsv sl) acc) a + owners (region_exts l) a)%nat).
Proof.
  intros Hinj. induction l as [|o t IH]; intros i acc Hl Hacc Hs; cbn [s2r_of region_exts].
  - split; [exact Hs|]. split; [|intros a; rewrite owners_nil; lia].
    intros a j. split; [auto|]. intros [H|(Hle & m & Hm & _)]; [exact H|].
    specialize (Hl (N.to_nat (j - i))). replace (i + N.of_nat (N.to_nat (j - i))) with j in Hl by lia.
    rewrite Hm in Hl. destruct (N.to_nat (j - i)); discriminate.
  - pose proof (Hl O) as H0. cbn [nth_opt] in H0. rewrite N.add_0_r in H0. symmetry in H0.
    assert (Ht : forall n, nth_opt t n = get sl (i + 1 + N.of_nat n)).
    { intros n. replace (i + 1 + N.of_nat n) with (i + N.of_nat (S n)) by lia. exact (Hl (S n)). }
    assert (Hsplit : forall j (P : Prop), i <= j /\ P <-> (j = i /\ P) \/ (i + 1 <= j /\ P)).
    { intros j P. split; [intros [H HP]; destruct (N.eq_dec j i); [left|right]; split; auto; lia|].
      intros [[-> HP]|[H HP]]; split; auto; lia. }
    destruct o as [m0|].
    + pose proof (Hacc i m0 (N.le_refl i) H0) as Habs.
      destruct (IH (i + 1) (ains (r_start m0) i acc) Ht) as (R1 & R2 & R3); [|now apply asorted_ains|].
      { intros j m Hle Hm. rewrite aget_ains. destruct (N.eqb_spec (r_start m) (r_start m0)) as [E|_].
        - pose proof (Hinj j i m m0 Hm H0 E). lia.
        - apply (Hacc j); [lia|exact Hm]. }
      split; [exact R1|]. split.
      * intros a j. rewrite R2, aget_ains, Hsplit. destruct (N.eqb_spec a (r_start m0)) as [->|Hne].
        -- rewrite Habs. split.
           ++ intros [[= <-]|H]; [right; left; eauto|auto].
           ++ intros [[=]|[(-> & _)|H]]; auto.
        -- split; [intros [H|H]; auto|]. intros [H|[(-> & m & Hm & Hst)|H]]; auto. congruence.
      * intros a. rewrite R3, vmap_ains, owners_ains_absent by (rewrite aget_vmap, Habs; reflexivity).
        rewrite owners_cons. unfold rsv at 1. rewrite H0. lia.
    + destruct (IH (i + 1) acc Ht) as (R1 & R2 & R3); [|exact Hs|].
      { intros j m Hle. apply (Hacc j). lia. }
      split; [exact R1|]. split; [|exact R3].
      intros a j. rewrite R2, Hsplit. split; [intros [H|H]; auto|].
      intros [H|[(-> & m & Hm & _)|H]]; auto. congruence.
Qed.
