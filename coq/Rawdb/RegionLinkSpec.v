(* The three descriptions of a rawdb region tied together: the reference of C01 (AllocSpec.sreg:
   length + data function; as a list, `bytes_of`), the byte-vector interface of the vector models
   (Vec/RegionSpec.v; `s_*_link`) and its generic copy with the MAX_RESERVED_SIZE assertion
   (Vec/CvRegion.v; `cv_*_equiv`: equal up to `cv_res` where the assertion holds).  The Vec modules
   are Required without Import: their constructor names clash with Alloc.aerr. *)
From Anydb Require Import Common.Base Common.ListFacts Gen.Consts Rawdb.Alloc Rawdb.AllocSpec.
From Anydb Require Vec.RegionSpec Vec.CvRegion.

Definition bytes_of (r : sreg) : list N := map (s_data r) (seqN 0 (N.to_nat (s_len r))).
Definition data_of (f : N -> N) (n : N) : list N := map f (seqN 0 (N.to_nat n)).

Lemma len_data_of f n : len (data_of f n) = n.
Proof. unfold data_of, len. rewrite map_length, seqN_length. lia. Qed.
Lemma len_bytes_of r : len (bytes_of r) = s_len r.
Proof. apply len_data_of. Qed.

Lemma data_of_ext f g n : (forall k, k < n -> f k = g k) -> data_of f n = data_of g n.
Proof.
  intros H. unfold data_of. apply map_ext_in. intros k Hk. apply in_seqN in Hk.
  apply H. lia.
Qed.

Lemma bytes_of_sreg_eq x y : sreg_eq x y -> bytes_of x = bytes_of y.
Proof.
  intros (Hl & Hd & _). unfold bytes_of. rewrite <- Hl.
  apply (data_of_ext (s_data x) (s_data y) (s_len x)). exact Hd.
Qed.

Lemma bytes_of_nil p d : bytes_of (mkS 0 d p) = [].
Proof. reflexivity. Qed.

Lemma take_data_of f n a : a <= n -> take a (data_of f n) = data_of f a.
Proof.
  intros H. unfold data_of. rewrite take_map. unfold take. rewrite firstn_seqN.
  do 2 f_equal. lia.
Qed.

Lemma splice_trunc (d f d' : N -> N) (L n a : N) :
  a <= L ->
  (forall k, k < a -> d' k = d k) ->
  (forall k, a <= k < a + n -> d' k = f (k - a)) ->
  take a (data_of d L) ++ data_of f n = data_of d' (a + n).
Proof.
  intros HaL Hlo Hmid.
  rewrite take_data_of by exact HaL.
  unfold data_of.
  replace (N.to_nat (a + n)) with (N.to_nat a + N.to_nat n)%nat by lia.
  rewrite seqN_app, map_app. f_equal.
  - apply map_ext_in. intros k Hk. apply in_seqN in Hk. symmetry. apply Hlo. lia.
  - rewrite (map_seqN_shift d'). apply map_ext_in. intros k Hk. apply in_seqN in Hk.
    rewrite Hmid by lia. f_equal. lia.
Qed.

Lemma splice_bytes (d f d' : N -> N) (L n a : N) :
  a <= L ->
  (forall k, k < a -> d' k = d k) ->
  (forall k, a <= k < a + n -> d' k = f (k - a)) ->
  (forall k, a + n <= k < L -> d' k = d k) ->
  take a (data_of d L) ++ data_of f n ++ drop (a + n) (data_of d L)
  = data_of d' (N.max (a + n) L).
Proof.
  intros HaL Hlo Hmid Hhi.
  rewrite app_assoc. rewrite (splice_trunc d f d' L n a HaL Hlo Hmid).
  unfold data_of at 2 3. rewrite drop_map. unfold drop. rewrite skipn_seqN.
  replace (N.to_nat (N.max (a + n) L))
    with (N.to_nat (a + n) + (N.to_nat L - N.to_nat (a + n)))%nat by lia.
  rewrite seqN_app, map_app. unfold data_of. f_equal.
  apply map_ext_in. intros k Hk. apply in_seqN in Hk. symmetry. apply Hhi. lia.
Qed.

Lemma s_write_at_link r f n a :
  match s_write r f n (Some a) false with
  | Ok r' => RegionSpec.r_write_at (bytes_of r) (data_of f n) a = Ok (bytes_of r')
  | Err e => e = Alloc.WriteOutOfBounds /\
             RegionSpec.r_write_at (bytes_of r) (data_of f n) a = Err RegionSpec.WriteOutOfBounds
  | Panic => False
  end.
Proof.
  unfold s_write, RegionSpec.r_write_at. rewrite len_bytes_of, len_data_of.
  destruct (s_len r <? a) eqn:E; [split; reflexivity|].
  f_equal. unfold bytes_of. cbn [s_len s_data].
  apply (splice_bytes (s_data r) f); intros; try lia.
  - destruct ((a <=? k) && (k <? a + n)) eqn:T; [lia | reflexivity].
  - destruct ((a <=? k) && (k <? a + n)) eqn:T; [reflexivity | lia].
  - destruct ((a <=? k) && (k <? a + n)) eqn:T; [lia | reflexivity].
Qed.

Lemma s_trunc_write_link r f n a :
  match s_write r f n (Some a) true with
  | Ok r' => RegionSpec.r_truncate_write (bytes_of r) a (data_of f n) = Ok (bytes_of r')
  | Err e => e = Alloc.WriteOutOfBounds /\
             RegionSpec.r_truncate_write (bytes_of r) a (data_of f n) = Err RegionSpec.WriteOutOfBounds
  | Panic => False
  end.
Proof.
  unfold s_write, RegionSpec.r_truncate_write. rewrite len_bytes_of.
  destruct (s_len r <? a) eqn:E; [split; reflexivity|].
  f_equal. unfold bytes_of. cbn [s_len s_data].
  apply (splice_trunc (s_data r) f); intros; try lia.
  - destruct ((a <=? k) && (k <? a + n)) eqn:T; [lia | reflexivity].
  - destruct ((a <=? k) && (k <? a + n)) eqn:T; [reflexivity | lia].
Qed.

Lemma s_append_link r f n :
  exists r', s_write r f n None false = Ok r' /\
             RegionSpec.r_write_at (bytes_of r) (data_of f n) (s_len r) = Ok (bytes_of r').
Proof.
  unfold s_write. eexists; split; [reflexivity|].
  unfold RegionSpec.r_write_at. rewrite len_bytes_of, len_data_of.
  rewrite N.ltb_irrefl.
  f_equal. unfold bytes_of. cbn [s_len s_data].
  replace (s_len r + n) with (N.max (s_len r + n) (s_len r)) at 2 by lia.
  apply (splice_bytes (s_data r) f); intros; try lia.
  - destruct (k <? s_len r) eqn:T; [reflexivity | lia].
  - destruct (k <? s_len r) eqn:T; [lia | reflexivity].
Qed.

(* the reference's Truncate on the entry of the name *)
Definition s_truncate (r : sreg) (from : N) : res aerr sreg :=
  if s_len r <? from then Err Alloc.TruncateInvalid
  else Ok (mkS from (s_data r) (s_persisted r || negb (from =? s_len r))).

Lemma s_truncate_link r from :
  match s_truncate r from with
  | Ok r' => RegionSpec.r_truncate (bytes_of r) from = Ok (bytes_of r')
  | Err e => e = Alloc.TruncateInvalid /\
             RegionSpec.r_truncate (bytes_of r) from = Err RegionSpec.TruncateInvalid
  | Panic => False
  end.
Proof.
  unfold s_truncate, RegionSpec.r_truncate. rewrite len_bytes_of.
  destruct (s_len r <? from) eqn:E; [split; reflexivity|].
  f_equal. unfold bytes_of. cbn [s_len s_data].
  apply (take_data_of (s_data r) (s_len r) from). lia.
Qed.

Definition cv_err (e : CvRegion.rerr) : RegionSpec.rerr :=
  match e with
  | CvRegion.WriteOutOfBounds => RegionSpec.WriteOutOfBounds
  | CvRegion.TruncateInvalid => RegionSpec.TruncateInvalid
  end.
Definition cv_res (x : res CvRegion.rerr (list N)) : res RegionSpec.rerr (list N) :=
  match x with Ok v => Ok v | Err e => Err (cv_err e) | Panic => Panic end.

Lemma cv_write_at_equiv (r bs : list N) a :
  (CvRegion.r_write_at r bs a = Panic /\ len r >= a /\
   MAX_RESERVED_SIZE < N.max (a + len bs) (len r))
  \/ cv_res (CvRegion.r_write_at r bs a) = RegionSpec.r_write_at r bs a.
Proof.
  unfold CvRegion.r_write_at, RegionSpec.r_write_at.
  destruct (len r <? a) eqn:E1; [right; reflexivity|].
  destruct (MAX_RESERVED_SIZE <? N.max (a + len bs) (len r)) eqn:E2.
  - left. repeat split; lia.
  - right. reflexivity.
Qed.

Lemma cv_truncate_equiv (r : list N) n :
  cv_res (CvRegion.r_truncate r n) = RegionSpec.r_truncate r n.
Proof.
  unfold CvRegion.r_truncate, RegionSpec.r_truncate.
  destruct (len r <? n) eqn:E; reflexivity.
Qed.

Lemma cv_truncate_write_equiv (r bs : list N) a :
  (CvRegion.r_truncate_write r a bs = Panic /\ len r >= a /\ MAX_RESERVED_SIZE < a + len bs)
  \/ cv_res (CvRegion.r_truncate_write r a bs) = RegionSpec.r_truncate_write r a bs.
Proof.
  unfold CvRegion.r_truncate_write, RegionSpec.r_truncate_write.
  destruct (len r <? a) eqn:E1; [right; reflexivity|].
  destruct (MAX_RESERVED_SIZE <? a + len bs) eqn:E2.
  - left. repeat split; lia.
  - right. reflexivity.
Qed.

Lemma cv_write_at_no_panic (r bs : list N) a :
  N.max (a + len bs) (len r) <= MAX_RESERVED_SIZE ->
  cv_res (CvRegion.r_write_at r bs a) = RegionSpec.r_write_at r bs a.
Proof.
  intros H. destruct (cv_write_at_equiv r bs a) as [(_ & _ & Hlt) | Heq]; [lia | exact Heq].
Qed.

Lemma cv_truncate_write_no_panic (r bs : list N) a :
  a + len bs <= MAX_RESERVED_SIZE ->
  cv_res (CvRegion.r_truncate_write r a bs) = RegionSpec.r_truncate_write r a bs.
Proof.
  intros H. destruct (cv_truncate_write_equiv r bs a) as [(_ & _ & Hlt) | Heq]; [lia | exact Heq].
Qed.

Definition map_res {A B E} (g : A -> B) (x : res E (list A)) : res E (list B) :=
  match x with Ok v => Ok (map g v) | Err e => Err e | Panic => Panic end.

Lemma cv_write_at_map {A B} (g : A -> B) (r bs : list A) a :
  map_res g (CvRegion.r_write_at r bs a) = CvRegion.r_write_at (map g r) (map g bs) a.
Proof.
  unfold CvRegion.r_write_at. rewrite !len_map.
  destruct (len r <? a) eqn:E1; [reflexivity|].
  destruct (MAX_RESERVED_SIZE <? N.max (a + len bs) (len r)) eqn:E2; [reflexivity|].
  cbn [map_res]. now rewrite !map_app, take_map, drop_map.
Qed.

Lemma cv_truncate_map {A B} (g : A -> B) (r : list A) n :
  map_res g (CvRegion.r_truncate r n) = CvRegion.r_truncate (map g r) n.
Proof.
  unfold CvRegion.r_truncate. rewrite len_map.
  destruct (len r <? n) eqn:E; [reflexivity|].
  cbn [map_res]. now rewrite take_map.
Qed.

Lemma cv_truncate_write_map {A B} (g : A -> B) (r bs : list A) a :
  map_res g (CvRegion.r_truncate_write r a bs) = CvRegion.r_truncate_write (map g r) a (map g bs).
Proof.
  unfold CvRegion.r_truncate_write. rewrite !len_map.
  destruct (len r <? a) eqn:E1; [reflexivity|].
  destruct (MAX_RESERVED_SIZE <? a + len bs) eqn:E2; [reflexivity|].
  cbn [map_res]. now rewrite map_app, take_map.
Qed.
