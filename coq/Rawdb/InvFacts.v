(* Rawdb/InvFacts.v — what `Inv` says of a single state.  Two extents that the cover clause both counts lie
   apart (`inv_disjoint`): region / region, region / hole, region / pending hole follow from it.
   `inv_set_held` is here because AllocOutcome.create_cases needs it; its likes for memory and file length
   are in InvOps. *)
From Anydb Require Import Common.Base Gen.Consts Rawdb.AMap Rawdb.Alloc Rawdb.AllocInv
  Rawdb.AMapFacts Rawdb.CoverFacts.

Lemma inv_sorted_s2r s : Inv s -> asorted (s2r s).
Proof. intros H. apply (inv_sorted s H). Qed.
Lemma inv_sorted_holes s : Inv s -> asorted (holes s).
Proof. intros H. apply (inv_sorted s H). Qed.
Lemma inv_sorted_pend s : Inv s -> asorted (pend s).
Proof. intros H. apply (inv_sorted s H). Qed.
Lemma inv_sorted_h2s s : Inv s -> asorted (h2s s).
Proof. intros H. apply (inv_sorted s H). Qed.

Lemma inv_owners_le1 s a : Inv s -> (owners (extents s) a <= 1)%nat.
Proof. intros H. rewrite (inv_cover s H). destruct (a <? layout_len s); lia. Qed.

Lemma disjoint_of_count (l : list ext) e1 e2 :
  (forall x, (owners l x <= 1)%nat) -> (forall x, (cov e1 x + cov e2 x <= owners l x)%nat) ->
  0 < snd e1 -> 0 < snd e2 ->
  fst e1 + snd e1 <= fst e2 \/ fst e2 + snd e2 <= fst e1.
Proof.
  intros Hle Hc Hp1 Hp2.
  destruct (N.le_gt_cases (fst e1 + snd e1) (fst e2)) as [|H1]; [left; assumption|].
  destruct (N.le_gt_cases (fst e2 + snd e2) (fst e1)) as [|H2]; [right; assumption|].
  (* the larger of the two starts lies in both *)
  exfalso. specialize (Hc (N.max (fst e1) (fst e2))). specialize (Hle (N.max (fst e1) (fst e2))).
  rewrite !cov_true in Hc by (unfold covers; lia). lia.
Qed.

Lemma inv_disjoint s e1 e2 :
  Inv s -> 0 < snd e1 -> 0 < snd e2 -> (forall x, (cov e1 x + cov e2 x <= owners (extents s) x)%nat) ->
  fst e1 + snd e1 <= fst e2 \/ fst e2 + snd e2 <= fst e1.
Proof.
  intros HI Hp1 Hp2 Hc. apply (disjoint_of_count (extents s)); auto.
  intros x. now apply inv_owners_le1.
Qed.

Lemma inv_cover3 s a : Inv s ->
  (owners (region_exts (slots s)) a + owners (holes s) a + owners (pend s) a)%nat = if a <? layout_len s then 1%nat else 0%nat.
Proof. intros H. rewrite <- (inv_cover s H a), owners_extents, (inv_no_resv s H), owners_nil. lia. Qed.

Lemma inv_ext_aligned s e : Inv s -> In e (extents s) -> aligned e.
Proof. intros H HI. pose proof (inv_aligned s H) as Ha. rewrite Forall_forall in Ha. auto. Qed.

Lemma inv_ext_end s e : Inv s -> In e (extents s) -> fst e + snd e <= layout_len s.
Proof.
  intros H HI. exact (cover_end_le _ _ e (inv_cover s H) HI (proj2 (proj2 (inv_ext_aligned s e H HI)))).
Qed.

Lemma inv_region_aligned s i m : Inv s -> slot s i = Some m -> aligned (rext m).
Proof.
  intros H Hs. apply (inv_ext_aligned s _ H). apply in_extents. left. eapply slot_in_region_exts; eauto.
Qed.

Lemma inv_hole_aligned s a z : Inv s -> aget a (holes s) = Some z -> aligned (a, z).
Proof.
  intros H Hs. apply (inv_ext_aligned s _ H). apply in_extents. right. left. now apply aget_in.
Qed.

Lemma region_hole_disjoint s i m hs z :
  Inv s -> slot s i = Some m -> aget hs (holes s) = Some z ->
  r_start m + r_reserved m <= hs \/ hs + z <= r_start m.
Proof.
  intros H Hs Hh.
  destruct (inv_region_aligned s i m H Hs) as (_ & _ & Hp1).
  destruct (inv_hole_aligned s hs z H Hh) as (_ & _ & Hp2).
  apply (inv_disjoint s (rext m) (hs, z) H Hp1 Hp2). intros x. rewrite owners_extents.
  pose proof (owners_in _ _ x (slot_in_region_exts s i m Hs)).
  pose proof (owners_in _ _ x (aget_in _ _ _ Hh)). lia.
Qed.

Lemma region_pend_disjoint s i m a z :
  Inv s -> slot s i = Some m -> aget a (pend s) = Some z ->
  r_start m + r_reserved m <= a \/ a + z <= r_start m.
Proof.
  intros HI Hs Hp.
  destruct (inv_region_aligned s i m HI Hs) as (_ & _ & Hp1).
  destruct (inv_ext_aligned s (a, z) HI) as (_ & _ & Hp2). { apply in_extents. right. right. left. now apply aget_in. }
  apply (inv_disjoint s (rext m) (a, z) HI Hp1 Hp2). intros x. rewrite owners_extents.
  pose proof (owners_in _ _ x (slot_in_region_exts s i m Hs)). pose proof (owners_in _ _ x (aget_in _ _ _ Hp)). lia.
Qed.

Lemma inv_region_start_not_pend s i m : Inv s -> slot s i = Some m -> aget (r_start m) (pend s) = None.
Proof.
  intros HI Hs. destruct (aget (r_start m) (pend s)) as [w|] eqn:E; [exfalso|reflexivity].
  destruct (inv_region_aligned s i m HI Hs) as (_ & _ & Hp1). cbn [snd rext] in Hp1.
  destruct (inv_ext_aligned s (r_start m, w) HI) as (_ & _ & Hp2). { apply in_extents. right. right. left. now apply aget_in. }
  cbn [snd] in Hp2. destruct (region_pend_disjoint s i m _ w HI Hs E); lia.
Qed.

Lemma region_end_le s i m : Inv s -> slot s i = Some m -> r_start m + r_reserved m <= layout_len s.
Proof.
  intros H Hs. apply (inv_ext_end s (rext m) H). apply in_extents. left. eapply slot_in_region_exts; eauto.
Qed.

Lemma inv_region_len s i m : Inv s -> slot s i = Some m -> r_len m <= r_reserved m.
Proof. intros HI Hs. apply (inv_len s HI i m Hs). Qed.
Lemma region_reserved_pos s i m : Inv s -> slot s i = Some m -> 0 < r_reserved m.
Proof. intros HI Hs. exact (proj2 (proj2 (inv_region_aligned s i m HI Hs))). Qed.
Lemma region_reserved_page s i m : Inv s -> slot s i = Some m -> r_reserved m mod PAGE_SIZE = 0.
Proof. intros HI Hs. exact (proj1 (proj2 (inv_region_aligned s i m HI Hs))). Qed.

Lemma region_end_file s i m : Inv s -> slot s i = Some m -> r_start m + r_reserved m <= file_len s.
Proof. intros HI Hs. pose proof (region_end_le s i m HI Hs). pose proof (inv_file s HI). lia. Qed.

Lemma hole_end_le s a z : Inv s -> aget a (holes s) = Some z -> a + z <= layout_len s.
Proof.
  intros HI Hh. apply (inv_ext_end s (a, z) HI). apply in_extents. right. left. now apply aget_in.
Qed.

(* it is 0 or the end of an extent *)
Lemma layout_len_aligned s : Inv s -> layout_len s mod PAGE_SIZE = 0.
Proof.
  intros HI. destruct (N.eq_dec (layout_len s) 0) as [->|Hnz]; [reflexivity|].
  pose proof (inv_cover s HI (layout_len s - 1)) as Hc.
  destruct (layout_len s - 1 <? layout_len s) eqn:E; [|lia].
  destruct (owners_pos_ex (extents s) (layout_len s - 1)) as (e & He & Hcov); [lia|].
  pose proof (inv_ext_end s e HI He) as Hend.
  unfold covers in Hcov.
  replace (layout_len s) with (fst e + snd e) by lia.
  destruct (inv_ext_aligned s e HI He) as (Ha1 & Ha2 & _).
  apply mod0_add; [exact PAGE_nz|assumption|assumption].
Qed.

Lemma last_anything_end s i m :
  Inv s -> slot s i = Some m -> is_last_anything s i = true -> r_start m + r_reserved m = layout_len s.
Proof.
  intros HI Hs. unfold is_last_anything. destruct (alast (s2r s)) as [[a j]|] eqn:El; [|discriminate].
  rewrite !andb_true_iff, N.eqb_eq. intros [[[-> Hh] _] Hp].
  destruct (proj1 (inv_s2r s HI a i) (in_aget _ _ _ (inv_sorted_s2r s HI) (alast_in _ _ El))) as (m' & Hm' & <-).
  rewrite Hs in Hm'. injection Hm' as <-.
  destruct (inv_region_aligned s i m HI Hs) as (_ & _ & Hpos). cbn [snd rext] in Hpos.
  unfold layout_len, last_region_end. rewrite El, Hs, (inv_no_resv s HI).
  change (last_end []) with 0.
  assert (Hle : forall M, asorted M -> lt_last_start (r_start m) M = true ->
            (forall b w, aget b M = Some w -> r_start m + r_reserved m <= b \/ b + w <= r_start m) -> last_end M <= r_start m).
  { intros M HsM Hlt Hd. unfold last_end, lt_last_start in *. destruct (alast M) as [[b w]|] eqn:Eh; [|lia].
    destruct (Hd b w (in_aget _ _ _ HsM (alast_in _ _ Eh))); lia. }
  pose proof (Hle _ (inv_sorted_holes s HI) Hh (fun b w => region_hole_disjoint s i m b w HI Hs)).
  pose proof (Hle _ (inv_sorted_pend s HI) Hp (fun b w => region_pend_disjoint s i m b w HI Hs)). lia.
Qed.

Lemma no_region_at s a :
  Inv s -> (forall j mj, slot s j = Some mj -> r_start mj + r_reserved mj <= a \/ a < r_start mj) ->
  aget a (s2r s) = None.
Proof.
  intros HI Hfar. destruct (aget a (s2r s)) as [j|] eqn:E; [|reflexivity]. exfalso.
  apply (inv_s2r s HI) in E. destruct E as (mj & Hj & Hst).
  destruct (inv_region_aligned s j mj HI Hj) as (_ & _ & Hp). cbn [snd rext] in Hp.
  destruct (Hfar j mj Hj); lia.
Qed.

Lemma no_region_at_hole s hs z : Inv s -> aget hs (holes s) = Some z -> aget hs (s2r s) = None.
Proof.
  intros HI Hh. apply (no_region_at s hs HI). intros j mj Hj.
  destruct (inv_hole_aligned s hs z HI Hh) as (_ & _ & Hp). cbn [snd] in Hp.
  destruct (region_hole_disjoint s j mj hs z HI Hj Hh); [left; assumption|right; lia].
Qed.

Lemma no_region_at_end s : Inv s -> aget (layout_len s) (s2r s) = None.
Proof. intros HI. apply (no_region_at s _ HI). intros j mj Hj. left. exact (region_end_le s j mj HI Hj). Qed.

Lemma inv_set_held s v : Inv s -> Inv (set_held s v) /\ layout_len (set_held s v) = layout_len s.
Proof. intros H. split; [|reflexivity]. destruct H. constructor; assumption. Qed.

(* the half of clause `inv_s2r` that removal needs, and keeps through the removals of retain *)
Definition s2r_ok (s : st) : Prop := forall i m, slot s i = Some m -> aget (r_start m) (s2r s) = Some i.

Lemma inv_s2r_ok s : Inv s -> s2r_ok s.
Proof. intros H i m Hs. apply (inv_s2r s H). eauto. Qed.

Lemma region_region_disjoint s i j mi mj :
  Inv s -> i <> j -> slot s i = Some mi -> slot s j = Some mj ->
  r_start mi + r_reserved mi <= r_start mj \/ r_start mj + r_reserved mj <= r_start mi.
Proof.
  intros H Hne Hi Hj.
  (* two slots do not hold the same extent: s2r sends its start to one index *)
  assert (Hst : rext mi <> rext mj).
  { intros [= E _]. pose proof (inv_s2r_ok s H i mi Hi) as A. rewrite E, (inv_s2r_ok s H j mj Hj) in A. congruence. }
  destruct (inv_region_aligned s i mi H Hi) as (_ & _ & Hp1).
  destruct (inv_region_aligned s j mj H Hj) as (_ & _ & Hp2).
  apply (inv_disjoint s (rext mi) (rext mj) H Hp1 Hp2). intros x.
  apply owners_in2; [apply in_extents; left; exact (slot_in_region_exts s i mi Hi)
                    |apply in_extents; left; exact (slot_in_region_exts s j mj Hj)|exact Hst].
Qed.

Lemma regions_in_order s i j mi mj :
  Inv s -> slot s i = Some mi -> slot s j = Some mj -> r_start mi < r_start mj ->
  r_start mi + r_reserved mi <= r_start mj.
Proof.
  intros HI Hi Hj Hlt. assert (Hne : i <> j) by (intros ->; rewrite Hi in Hj; injection Hj as ->; lia).
  destruct (region_region_disjoint s i j mi mj HI Hne Hi Hj); lia.
Qed.

Lemma inv_pend_aligned s : Inv s -> Forall aligned (pend s).
Proof. intros H. apply Forall_forall. intros e He. apply (inv_ext_aligned s e H), in_extents. auto. Qed.

(* what InvOps.mk_inv_ok asks of every live slot *)
Lemma inv_slot_ok s j mj :
  Inv s -> slot s j = Some mj ->
  aligned (rext mj) /\ r_len mj <= r_reserved mj /\ r_reserved mj <= MAX_RESERVED_SIZE.
Proof. intros HI Hj. exact (conj (inv_region_aligned s j mj HI Hj) (inv_len s HI j mj Hj)). Qed.
