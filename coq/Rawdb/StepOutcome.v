(* Rawdb/StepOutcome.v — `step_outcome`: what a step does under Inv, in the form InvOps.post that every
   call's lemma has; a panic is a write past half the reserve limit.  C02, C13 (`c13_rawdb`) and the
   no-panic clause of C01 (`step_no_panic`) are its projections. *)
From Anydb Require Import Common.Base Gen.Consts Rawdb.Alloc Rawdb.AllocInv
  Rawdb.AllocErr Rawdb.InvOps Rawdb.InvRemove Rawdb.InvCreate Rawdb.InvWrite Rawdb.InvFlush Rawdb.InvReopen.

Lemma with_region_post P s id k :
  Inv s -> (forall i m, find_id s id = Some i -> slot s i = Some m -> post P s (k i)) ->
  post P s (with_region s id k).
Proof. intros HI Hk. apply with_region_ind; [now apply post_same|exact Hk]. Qed.

Lemma post_never P s x : post False s x -> post P s x.
Proof. intros H. apply (post_panic False P s x H). intros ->. destruct H. Qed.

(* The second premise is `writes_fit s o` unfolded at a write: the callers pass `fun H => H`, which
   converts one into the other.  An operation that can exceed the bound needs its arm in
   AllocFacts.op_fits, AllocErr.writes_fit and AllocNoPanic.op_fits_strong (the second conjunct of the
   last is writes_fit written out). *)
Lemma write_step_post s o id f n at_ tr :
  Inv s ->
  (writes_fit s o -> forall i m, find_id s id = Some i -> slot s i = Some m -> r_len m + n <= MAX_RESERVED_SIZE / 2) ->
  post (~ writes_fit s o) s (with_region s id (fun i => write_with s i f n at_ tr)).
Proof.
  intros HI Hfit. apply (with_region_post _ s id _ HI). intros i m Ei Hs.
  apply (post_panic True _ s _ (write_with_post s i f n at_ tr HI)). intros E Hf.
  pose proof (write_with_cases s i m f n at_ tr HI Hs) as H2. rewrite E in H2.
  specialize (Hfit Hf i m Ei Hs). lia.
Qed.

Theorem step_outcome s o : Inv s -> post (~ writes_fit s o) s (step s o).
Proof.
  intros HI. destruct o; cbn [step].
  - now apply post_never, create_post.
  - exact (write_step_post s (Write id f n) id f n None false HI (fun H => H)).
  - exact (write_step_post s (WriteAt id f n at_) id f n (Some at_) false HI (fun H => H)).
  - exact (write_step_post s (TruncWrite id f n at_) id f n (Some at_) true HI (fun H => H)).
  - apply (with_region_post _ s id _ HI). intros i m _ _. now apply post_never, truncate_post.
  - apply (with_region_post _ s id _ HI). intros i m _ _. now apply post_never, rename_post.
  - now apply post_never, remove_post.
  - now apply post_len, inv_set_held.
  - now apply post_never, retain_post.
  - pose proof (inv_flush s HI) as H. destruct (flush s) as [s1 n]. now apply post_len.
  - apply (with_region_post _ s id _ HI). intros i m _ _. now apply post_never, flush_region_post.
  - destruct (inv_flush s HI) as [H1 H2]. unfold compact. destruct (flush s) as [s1 n].
    apply post_len. split; [now apply inv_set_mem|exact H2].
  - destruct (reopen_ok s HI) as (s' & E & HI'). rewrite E. split; [exact HI'|].
    apply reuse_ok_no_move. intros j mj' Hj.
    destruct (reopen_slot_sub s s' _ j mj' HI E Hj) as (mj & Hmj & _ & ->). exists mj. split; [exact Hmj|reflexivity].
  - now apply post_len, inv_set_min_len.
  - now apply post_len, inv_set_min_regions.
Qed.

Corollary step_no_panic s o : Inv s -> writes_fit s o -> step s o <> APanic.
Proof. intros HI Hf E. pose proof (step_outcome s o HI) as H. rewrite E in H. exact (H Hf). Qed.

Theorem c13_rawdb s o s' e :
  Inv s -> step s o = AErr s' e -> e <> RegionMetadataUnwritten -> s' = s.
Proof. intros HI E. pose proof (step_outcome s o HI) as H. rewrite E in H. exact (proj2 H). Qed.
