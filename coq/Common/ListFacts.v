(* Facts about the N-indexed list vocabulary of Common/Base.v (len / take / drop / slice / get / set_nth / seqN),
   also over the stdlib's `combine`, `filter`, `flat_map` and `rev`.  Base.v gives each definition its first facts
   and the exact cases of take / drop / slice over an append; every other fact whose statement is about that
   vocabulary and the stdlib alone belongs here.  One that a single layer needs may stand in that layer's own file
   (Vec/CvLists.v for the compressed vectors) until a second layer uses it. *)
From Anydb Require Import Common.Base.

Lemma len_0_nil {A} (l : list A) : len l = 0 -> l = [].
Proof. destruct l; [auto|]. rewrite len_cons. lia. Qed.
Lemma len_map {A B} (f : A -> B) l : len (map f l) = len l.
Proof. unfold len. now rewrite map_length. Qed.
Lemma len_seqN a n : len (seqN a n) = N.of_nat n.
Proof. unfold len. now rewrite seqN_length. Qed.
Lemma len_flat_map {X A} (en : X -> list A) w (vs : list X) :
  (forall v, In v vs -> len (en v) = w) -> len (flat_map en vs) = w * len vs.
Proof.
  induction vs as [|v t IH]; intros H; cbn [flat_map]; [unfold len; cbn [length]; lia|].
  rewrite len_app, len_cons, IH by (intros; apply H; now right). rewrite (H v) by now left. lia.
Qed.

Lemma take_all {A} n (l : list A) : len l <= n -> take n l = l.
Proof. unfold take, len. intros. apply firstn_all2. lia. Qed.
Lemma drop_all {A} n (l : list A) : len l <= n -> drop n l = [].
Proof. unfold drop, len. intros. apply skipn_all2. lia. Qed.
Lemma take_app_le {A} n (a b : list A) : n <= len a -> take n (a ++ b) = take n a.
Proof. unfold take, len. intros. apply firstn_app_le. lia. Qed.
Lemma take_app_ge {A} n (a b : list A) : len a <= n -> take n (a ++ b) = a ++ take (n - len a) b.
Proof.
  unfold take, len. intros. rewrite firstn_app. rewrite firstn_all2 by lia.
  f_equal. f_equal. lia.
Qed.
Lemma drop_app_le {A} n (a b : list A) : n <= len a -> drop n (a ++ b) = drop n a ++ b.
Proof. unfold drop, len. intros. apply skipn_app_le. lia. Qed.
Lemma drop_app_ge {A} n (a b : list A) : len a <= n -> drop n (a ++ b) = drop (n - len a) b.
Proof. unfold drop, len. intros. rewrite skipn_app_ge by lia. f_equal. lia. Qed.
Lemma take_take {A} n m (l : list A) : n <= m -> take n (take m l) = take n l.
Proof. intros. unfold take. rewrite firstn_firstn. f_equal. lia. Qed.
Lemma take_map {A B} (f : A -> B) n l : take n (map f l) = map f (take n l).
Proof. apply firstn_map. Qed.
Lemma drop_map {A B} (f : A -> B) n l : drop n (map f l) = map f (drop n l).
Proof. apply skipn_map. Qed.
Lemma drop_drop {A} a b (l : list A) : drop a (drop b l) = drop (b + a) l.
Proof.
  unfold drop. replace (N.to_nat (b + a)) with (N.to_nat b + N.to_nat a)%nat by lia.
  generalize (N.to_nat b). intros n. revert l. induction n; intros l; [reflexivity|].
  destruct l; [now rewrite !skipn_nil|]. apply IHn.
Qed.
Lemma drop_rev_take {A} (l : list A) m : drop (len l - m) (rev l) = rev (take m l).
Proof.
  rewrite <- (take_drop m l) at 2. rewrite rev_app_distr. apply drop_app_exact.
  symmetry. unfold len at 1. rewrite rev_length. apply len_drop.
Qed.
Lemma in_take {A} n (l : list A) x : In x (take n l) -> In x l.
Proof. intros H. rewrite <- (take_drop n l). apply in_or_app. now left. Qed.
Lemma in_drop {A} n (l : list A) x : In x (drop n l) -> In x l.
Proof. intros H. rewrite <- (take_drop n l). apply in_or_app. now right. Qed.
Lemma slice_field {A} (p x q : list A) f t :
  len p = f -> len x = t - f -> slice f t (p ++ x ++ q) = x.
Proof.
  intros <- E. unfold slice. rewrite drop_app_exact by reflexivity.
  apply take_app_exact. now symmetry.
Qed.
Lemma slice_mid {A} (a b c : list A) : slice (len a) (len a + len b) (a ++ b ++ c) = b.
Proof. apply slice_field; lia. Qed.
Lemma slice_take {A} (l : list A) p q m : q <= m -> slice p q (take m l) = slice p q l.
Proof.
  intros H. unfold slice, take, drop.
  destruct (N.le_gt_cases p q) as [Hpq|Hpq].
  - rewrite skipn_firstn_comm, firstn_firstn. f_equal. lia.
  - replace (N.to_nat (q - p)) with O by lia. reflexivity.
Qed.
Lemma slice_app_split {A} (b e1 e2 : list A) p :
  slice p (p + len (e1 ++ e2)) b = e1 ++ e2 ->
  slice p (p + len e1) b = e1 /\ slice (p + len e1) (p + len e1 + len e2) b = e2.
Proof.
  unfold slice. rewrite len_app.
  replace (p + (len e1 + len e2) - p) with (len e1 + len e2) by lia.
  replace (p + len e1 - p) with (len e1) by lia.
  replace (p + len e1 + len e2 - (p + len e1)) with (len e2) by lia.
  rewrite <- (drop_drop (len e1) p b).
  set (t := drop p b). intros H. split.
  - rewrite <- (take_take (len e1) (len e1 + len e2)), H by lia. now apply take_app_exact.
  - unfold take, drop in *. rewrite firstn_skipn_comm.
    replace (N.to_nat (len e1) + N.to_nat (len e2))%nat with (N.to_nat (len e1 + len e2)) by lia. rewrite H.
    now apply (drop_app_exact e1 e2).
Qed.

Lemma get_nth_error {A} (l : list A) i : get l i = nth_error l (N.to_nat i).
Proof. apply nth_opt_nth_error. Qed.
Lemma nth_opt_map {A B} (f : A -> B) l n : nth_opt (map f l) n = option_map f (nth_opt l n).
Proof. revert n. induction l as [|h t IH]; intros [|n]; cbn [map nth_opt option_map]; auto. Qed.

Lemma get_none_iff {A} (l : list A) i : get l i = None <-> len l <= i.
Proof. unfold len. rewrite get_nth_error, nth_error_None. lia. Qed.
Lemma get_none {A} (l : list A) i : len l <= i -> get l i = None.
Proof. apply get_none_iff. Qed.
Lemma get_some_lt {A} (l : list A) i v : get l i = Some v -> i < len l.
Proof. intros H. destruct (N.lt_ge_cases i (len l)); auto. rewrite get_none in H by auto. discriminate. Qed.
Lemma get_some {A} (l : list A) i : i < len l -> exists v, get l i = Some v.
Proof. intros H. destruct (get l i) eqn:E; [eauto|]. apply get_none_iff in E. lia. Qed.
Lemma get_in {A} (l : list A) i v : get l i = Some v -> In v l.
Proof. rewrite get_nth_error. apply nth_error_In. Qed.

Lemma get_cons {A} (x : A) l i : get (x :: l) i = if i =? 0 then Some x else get l (i - 1).
Proof.
  unfold get. destruct (i =? 0) eqn:E.
  - replace (N.to_nat i) with O by lia. reflexivity.
  - replace (N.to_nat i) with (S (N.to_nat (i - 1))) by lia. reflexivity.
Qed.
Lemma get_app_l {A} (a b : list A) i : i < len a -> get (a ++ b) i = get a i.
Proof. unfold len. intros. rewrite !get_nth_error. apply nth_error_app1. lia. Qed.
Lemma get_app_r {A} (a b : list A) i : len a <= i -> get (a ++ b) i = get b (i - len a).
Proof. unfold len. intros. rewrite !get_nth_error, nth_error_app2 by lia. f_equal. lia. Qed.
Lemma get_app_len {A} (a : list A) x t : get (a ++ x :: t) (len a) = Some x.
Proof. rewrite get_app_r, N.sub_diag by lia. reflexivity. Qed.

Lemma nth_error_firstn_lt {A} (l : list A) n k : (k < n)%nat -> nth_error (firstn n l) k = nth_error l k.
Proof.
  revert l k; induction n; intros l k H; [lia|]. destruct l; [now rewrite firstn_nil|].
  destruct k; cbn; auto. apply IHn. lia.
Qed.
Lemma get_take_lt {A} (l : list A) n i : i < n -> get (take n l) i = get l i.
Proof. intros. unfold take. rewrite !get_nth_error. apply nth_error_firstn_lt. lia. Qed.
Lemma get_take_ge {A} (l : list A) n i : n <= i -> get (take n l) i = None.
Proof. intros. apply get_none. rewrite len_take. lia. Qed.
Lemma nth_error_skipn {A} (l : list A) n k : nth_error (skipn n l) k = nth_error l (n + k).
Proof. revert l; induction n; intros l; cbn; auto. destruct l; cbn; auto. now destruct k. Qed.
Lemma get_drop {A} (l : list A) n i : get (drop n l) i = get l (n + i).
Proof. unfold drop. rewrite !get_nth_error, nth_error_skipn. f_equal. lia. Qed.
Lemma drop_get_cons {A} (s : list A) i v : get s i = Some v -> drop i s = v :: drop (i + 1) s.
Proof.
  unfold get, drop. rewrite nth_opt_nth_error. replace (N.to_nat (i + 1)) with (S (N.to_nat i)) by lia.
  generalize (N.to_nat i) as n. induction s as [|x s IH]; intros [|n] H; try discriminate.
  - now injection H as ->.
  - now apply IH.
Qed.
Lemma get_map {A B} (f : A -> B) l i : get (map f l) i = option_map f (get l i).
Proof. apply nth_opt_map. Qed.

Lemma get_combine {A1 A2} (s1 : list A1) (s2 : list A2) i :
  get (combine s1 s2) i = match get s1 i, get s2 i with Some a, Some b => Some (a, b) | _, _ => None end.
Proof.
  revert s2 i. induction s1 as [|a s1 IH]; intros [|b s2] i; cbn [combine]; rewrite ?get_cons;
    try (rewrite !get_none by apply N.le_0_l); try reflexivity.
  - now destruct (i =? 0), (get s1 (i - 1)).
  - destruct (i =? 0); [reflexivity|apply IH].
Qed.
Lemma len_combine {A1 A2} (s1 : list A1) (s2 : list A2) : len (combine s1 s2) = N.min (len s1) (len s2).
Proof. unfold len. rewrite combine_length. lia. Qed.
Lemma map_fst_combine {A B} (a : list A) (b : list B) : length a = length b -> map fst (combine a b) = a.
Proof. revert b; induction a; intros [|y b] H; cbn in *; try discriminate; [reflexivity|]. f_equal. apply IHa. lia. Qed.

Lemma list_ext_get {A} (a b : list A) : (forall i, get a i = get b i) -> a = b.
Proof.
  revert b; induction a as [|x a IH]; intros [|y b] H; auto; try (specialize (H 0); discriminate).
  pose proof (H 0) as H0. injection H0 as ->. f_equal. apply IH. intros i.
  specialize (H (i + 1)). rewrite !get_cons in H. destruct (N.eqb_spec (i + 1) 0); [lia|].
  now replace (i + 1 - 1) with i in H by lia.
Qed.

Lemma set_nth_length {A} (l : list A) n x : length (set_nth l n x) = length l.
Proof. revert n; induction l; destruct n; cbn; auto. Qed.
Lemma len_set_nth {A} (l : list A) n x : len (set_nth l n x) = len l.
Proof. unfold len. now rewrite set_nth_length. Qed.
Lemma nth_error_set_nth {A} (l : list A) k x j :
  nth_error (set_nth l k x) j = if (j =? k)%nat && (k <? length l)%nat then Some x else nth_error l j.
Proof.
  revert k j; induction l as [|y t IH]; intros k j; cbn [set_nth length].
  - destruct j; cbn; now rewrite andb_false_r.
  - destruct k, j; cbn [nth_error Nat.eqb]; auto.
    rewrite IH. destruct (j =? k)%nat; cbn; auto.
Qed.
Lemma get_set_nth {A} (l : list A) j x i : j < len l ->
  get (set_nth l (N.to_nat j) x) i = if i =? j then Some x else get l i.
Proof.
  unfold len. intros H. rewrite !get_nth_error, nth_error_set_nth.
  destruct (N.eqb_spec i j) as [->|E].
  - rewrite Nat.eqb_refl. now destruct (Nat.ltb_spec (N.to_nat j) (length l)); [|lia].
  - destruct (Nat.eqb_spec (N.to_nat i) (N.to_nat j)) as [E'|]; [now apply N2Nat.inj in E'|reflexivity].
Qed.

Lemma seqN_app a n m : seqN a (n + m) = seqN a n ++ seqN (a + N.of_nat n) m.
Proof.
  revert a; induction n as [|n IH]; intros a; cbn [seqN Nat.add app].
  - f_equal. lia.
  - f_equal. rewrite IH. f_equal. f_equal. lia.
Qed.
Lemma firstn_seqN k a c : firstn k (seqN a c) = seqN a (Nat.min k c).
Proof.
  revert a c; induction k as [|k IHk]; intros a c.
  - reflexivity.
  - destruct c as [|c]; [reflexivity|].
    cbn [seqN firstn Nat.min]. now rewrite IHk.
Qed.

Lemma skipn_seqN k a c : skipn k (seqN a c) = seqN (a + N.of_nat k) (c - k).
Proof.
  revert a c; induction k as [|k IHk]; intros a c.
  - cbn [skipn]. rewrite Nat.sub_0_r. f_equal. lia.
  - destruct c as [|c]; [reflexivity|].
    cbn [seqN skipn Nat.sub]. rewrite IHk. f_equal. lia.
Qed.

Lemma map_seqN_shift {B} (g : N -> B) a c :
  map g (seqN a c) = map (fun k => g (k + a)) (seqN 0 c).
Proof.
  revert g a; induction c as [|c IHc]; intros g a; [reflexivity|].
  cbn [seqN map]. f_equal.
  rewrite IHc. rewrite (IHc (fun k => g (k + a)) (0 + 1)).
  apply map_ext. intros k. f_equal. lia.
Qed.
Lemma get_seqN a n i : get (seqN a n) i = if i <? N.of_nat n then Some (a + i) else None.
Proof.
  revert a i; induction n as [|n IH]; intros a i; cbn [seqN].
  - destruct (N.ltb_spec i (N.of_nat 0)); [lia|]. now apply get_none.
  - rewrite get_cons, IH. destruct (N.eqb_spec i 0) as [->|].
    + destruct (N.ltb_spec 0 (N.of_nat (S n))); [|lia]. f_equal. lia.
    + destruct (N.ltb_spec (i - 1) (N.of_nat n)), (N.ltb_spec i (N.of_nat (S n))); try lia; auto.
      f_equal. lia.
Qed.
Lemma Forall_seqN (P : N -> Prop) from n :
  (forall i, from <= i < from + N.of_nat n -> P i) -> Forall P (seqN from n).
Proof. intros H. apply Forall_forall. intros x Hx. apply H. now apply in_seqN. Qed.
Lemma get_map_seqN {A} (f : N -> A) a n i :
  get (map f (seqN a n)) i = if i <? N.of_nat n then Some (f (a + i)) else None.
Proof. rewrite get_map, get_seqN. now destruct (i <? N.of_nat n). Qed.

Lemma filter_all_id {A} (f : A -> bool) l : (forall x, In x l -> f x = true) -> filter f l = l.
Proof.
  induction l as [|x l IH]; intros H; [reflexivity|]. cbn [filter].
  rewrite (H x (or_introl eq_refl)). f_equal. apply IH. intros y Hy. apply H. now right.
Qed.
