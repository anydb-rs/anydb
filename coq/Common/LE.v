(* Bytes as N below 256 (`bytes_ok`); little-endian integer codecs `le_enc` / `le_dec`. *)
From Anydb Require Import Common.Base.

Definition byte_ok (b : N) : bool := b <? 256.
Definition bytes_ok (l : list N) : bool := forallb byte_ok l.

Fixpoint le_enc (w : nat) (v : N) : list N :=
  match w with
  | O => []
  | S k => (v mod 256) :: le_enc k (v / 256)
  end.

Fixpoint le_dec (l : list N) : N :=
  match l with
  | [] => 0
  | b :: t => b + 256 * le_dec t
  end.

Lemma le_enc_length w v : length (le_enc w v) = w.
Proof. revert v; induction w; cbn; intros; auto. Qed.

Lemma len_le_enc w v : len (le_enc w v) = N.of_nat w.
Proof. unfold len. now rewrite le_enc_length. Qed.

Lemma le_enc_bytes_ok w v : bytes_ok (le_enc w v) = true.
Proof.
  revert v; induction w; cbn; intros; auto.
  rewrite IHw. unfold byte_ok. rewrite andb_true_r.
  apply N.ltb_lt. apply N.mod_lt. lia.
Qed.

Lemma le_dec_enc w v : v < 256 ^ N.of_nat w -> le_dec (le_enc w v) = v.
Proof.
  revert v; induction w; intros v Hv.
  - cbn in *. change (256 ^ N.of_nat 0) with 1 in Hv. lia.
  - cbn [le_enc le_dec]. rewrite IHw.
    + pose proof (N.div_mod v 256). lia.
    + replace (N.of_nat (S w)) with (N.succ (N.of_nat w)) in Hv by lia.
      rewrite N.pow_succ_r' in Hv.
      apply N.div_lt_upper_bound; lia.
Qed.

Lemma le_dec_bound l : bytes_ok l = true -> le_dec l < 256 ^ len l.
Proof.
  induction l as [|b t IH]; intros H.
  - cbn. change (256 ^ len []) with 1. lia.
  - cbn [bytes_ok forallb] in H. apply andb_true_iff in H as [Hb Ht].
    specialize (IH Ht). cbn [le_dec]. rewrite len_cons.
    replace (1 + len t) with (N.succ (len t)) by lia.
    rewrite N.pow_succ_r'. unfold byte_ok in Hb. apply N.ltb_lt in Hb. nia.
Qed.

Lemma le_enc_dec l : bytes_ok l = true -> le_enc (length l) (le_dec l) = l.
Proof.
  induction l as [|b t IH]; intros H; cbn [length le_enc le_dec]; auto.
  cbn [bytes_ok forallb] in H. apply andb_true_iff in H as [Hb Ht].
  unfold byte_ok in Hb. apply N.ltb_lt in Hb.
  replace ((b + 256 * le_dec t) mod 256) with b by lia.
  replace ((b + 256 * le_dec t) / 256) with (le_dec t) by lia.
  now rewrite IH.
Qed.

Definition enc_u64 := le_enc 8.
Definition enc_u32 := le_enc 4.
Definition two32 : N := 4294967296.

Lemma len_enc_u32 v : len (enc_u32 v) = 4. Proof. apply len_le_enc. Qed.
Lemma len_enc_u64 v : len (enc_u64 v) = 8. Proof. apply len_le_enc. Qed.

Lemma pow256_8 : 256 ^ N.of_nat 8 = two64. Proof. reflexivity. Qed.
Lemma pow256_4 : 256 ^ N.of_nat 4 = two32. Proof. reflexivity. Qed.

Lemma dec_enc_u64 v : v < two64 -> le_dec (enc_u64 v) = v.
Proof. intros. apply le_dec_enc. now rewrite pow256_8. Qed.
Lemma dec_enc_u32 v : v < two32 -> le_dec (enc_u32 v) = v.
Proof. intros. apply le_dec_enc. now rewrite pow256_4. Qed.

Lemma bytes_ok_app a b : bytes_ok (a ++ b) = bytes_ok a && bytes_ok b.
Proof. apply forallb_app. Qed.
Lemma bytes_ok_repeat0 n : bytes_ok (repeat 0 n) = true.
Proof. induction n; cbn; auto. Qed.
Lemma bytes_ok_take n l : bytes_ok l = true -> bytes_ok (take n l) = true.
Proof. intros H. rewrite <- (take_drop n l), bytes_ok_app in H. now apply andb_true_iff in H. Qed.
Lemma bytes_ok_drop n l : bytes_ok l = true -> bytes_ok (drop n l) = true.
Proof. intros H. rewrite <- (take_drop n l), bytes_ok_app in H. now apply andb_true_iff in H. Qed.
Lemma bytes_ok_slice f t l : bytes_ok l = true -> bytes_ok (slice f t l) = true.
Proof. intros H. apply bytes_ok_take, bytes_ok_drop, H. Qed.

Lemma le_dec_bound_take w l : bytes_ok l = true -> le_dec (take (N.of_nat w) l) < 256 ^ N.of_nat w.
Proof.
  intros H. pose proof (le_dec_bound _ (bytes_ok_take (N.of_nat w) l H)) as B.
  rewrite len_take in B.
  eapply N.lt_le_trans; [exact B|]. apply N.pow_le_mono_r; lia.
Qed.

#[export] Hint Rewrite len_enc_u32 len_enc_u64 : len.
