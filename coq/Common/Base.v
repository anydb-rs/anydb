(* Common/Base.v — numbers, results (`res` with `let!`), list helpers shared by every model (`len`,
   `take`, `drop`, `slice`, `get`, `set_nth`, `seqN`) with their first facts; more in ListFacts.v.
   The rewrite base `len` holds the lengths of the constructors only (`len_app`, `len_nil`, `len_cons`,
   `len_repeat`; LE.v adds those of `enc_u32` / `enc_u64`): it computes the length of a record laid out with
   `++`; `len_take`, `len_drop`, `len_slice`, which bring in `N.min` and a subtraction, are not in it.
   Style: stdlib only, N for every usize/u64, nat only for list lengths and fuel. *)
From Coq Require Export List NArith ZArith Arith Lia Bool.
From Coq Require Export ZifyBool ZifyNat ZifyN.
Export ListNotations.
Open Scope N_scope.

(* ZifyBool installs [elim_bool_cstr] as zify's post hook.  It is switched off: no proof here needs it,
   and with it every lia inspects, and inside a Section comes to depend on, every boolean hypothesis in
   sight.  (Division and modulo need no hook: ZifyN and ZifyNat switch zify's own treatment of them on.) *)
Ltac Zify.zify_post_hook ::= idtac.

Global Arguments N.add : simpl never.
Global Arguments N.sub : simpl never.
Global Arguments N.mul : simpl never.
Global Arguments N.div : simpl never.
Global Arguments N.modulo : simpl never.
Global Arguments N.eqb : simpl never.
Global Arguments N.ltb : simpl never.
Global Arguments N.leb : simpl never.
Global Arguments N.pow : simpl never.
Global Arguments N.of_nat : simpl never.
Global Arguments N.to_nat : simpl never.

(* A Rust call either returns, returns an error of kind E, or panics.  Panic is a
   constructor of its own: "never panics" is a statement about the range. *)
Inductive res (E A : Type) : Type :=
| Ok (a : A)
| Err (e : E)
| Panic.
Arguments Ok {E A} a.
Arguments Err {E A} e.
Arguments Panic {E A}.

Definition bind {E A B} (r : res E A) (f : A -> res E B) : res E B :=
  match r with Ok a => f a | Err e => Err e | Panic => Panic end.
Notation "'let!' x ':=' r 'in' k" := (bind r (fun x => k))
  (at level 200, x pattern, r at level 100, k at level 200, right associativity).

Definition is_ok {E A} (r : res E A) : bool := match r with Ok _ => true | _ => false end.
Definition is_panic {E A} (r : res E A) : bool := match r with Panic => true | _ => false end.

Definition u64_max : N := 18446744073709551615.
Definition two64 : N := 18446744073709551616.
Definition fits64 (n : N) : bool := n <? two64.

Definition len {A} (l : list A) : N := N.of_nat (length l).

Lemma len_app {A} (a b : list A) : len (a ++ b) = len a + len b.
Proof. unfold len. rewrite app_length. lia. Qed.
Lemma len_nil {A} : len (@nil A) = 0. Proof. reflexivity. Qed.
Lemma len_cons {A} (x : A) l : len (x :: l) = 1 + len l.
Proof. unfold len. cbn [length]. lia. Qed.

Definition take {A} (n : N) (l : list A) : list A := firstn (N.to_nat n) l.
Definition drop {A} (n : N) (l : list A) : list A := skipn (N.to_nat n) l.
Definition slice {A} (from to : N) (l : list A) : list A := take (to - from) (drop from l).

Lemma len_take {A} n (l : list A) : len (take n l) = N.min n (len l).
Proof. unfold len, take. rewrite firstn_length. lia. Qed.
Lemma len_drop {A} n (l : list A) : len (drop n l) = len l - n.
Proof. unfold len, drop. rewrite skipn_length. lia. Qed.
Lemma len_slice {A} f t (l : list A) : len (slice f t l) = N.min (t - f) (len l - f).
Proof. unfold slice. now rewrite len_take, len_drop. Qed.
Lemma len_repeat {A} (x : A) n : len (repeat x n) = N.of_nat n.
Proof. unfold len. now rewrite repeat_length. Qed.
Lemma take_app_exact {A} (a b : list A) n : n = len a -> take n (a ++ b) = a.
Proof.
  intros ->. unfold take, len. rewrite Nat2N.id.
  rewrite firstn_app, Nat.sub_diag, firstn_all. cbn. now rewrite app_nil_r.
Qed.
Lemma drop_app_exact {A} (a b : list A) n : n = len a -> drop n (a ++ b) = b.
Proof.
  intros ->. unfold drop, len. rewrite Nat2N.id.
  rewrite skipn_app, Nat.sub_diag, skipn_all. reflexivity.
Qed.
Lemma take_drop {A} n (l : list A) : take n l ++ drop n l = l.
Proof. apply firstn_skipn. Qed.

Fixpoint nth_opt {A} (l : list A) (n : nat) : option A :=
  match l, n with
  | [], _ => None
  | x :: _, O => Some x
  | _ :: t, S k => nth_opt t k
  end.
Definition get {A} (l : list A) (i : N) : option A := nth_opt l (N.to_nat i).

Lemma nth_opt_nth_error {A} (l : list A) n : nth_opt l n = nth_error l n.
Proof. revert n; induction l; destruct n; cbn; auto. Qed.

Fixpoint set_nth {A} (l : list A) (n : nat) (x : A) : list A :=
  match l, n with
  | [], _ => []
  | _ :: t, O => x :: t
  | h :: t, S k => h :: set_nth t k x
  end.

Fixpoint seqN (from : N) (count : nat) : list N :=
  match count with O => [] | S k => from :: seqN (from + 1) k end.

Lemma seqN_length from n : length (seqN from n) = n.
Proof. revert from; induction n; cbn; intros; auto. Qed.
Lemma in_seqN x from n : In x (seqN from n) <-> from <= x < from + N.of_nat n.
Proof.
  revert from; induction n; intros from; cbn [seqN In].
  - lia.
  - rewrite IHn. lia.
Qed.

Lemma firstn_app_le {A} n (a b : list A) : (n <= length a)%nat -> firstn n (a ++ b) = firstn n a.
Proof.
  intros H. rewrite firstn_app. replace (n - length a)%nat with O by lia.
  cbn. now rewrite app_nil_r.
Qed.
Lemma skipn_app_ge {A} n (a b : list A) : (length a <= n)%nat -> skipn n (a ++ b) = skipn (n - length a) b.
Proof.
  intros H. rewrite skipn_app. rewrite (skipn_all2 a) by lia. reflexivity.
Qed.
Lemma skipn_app_le {A} n (a b : list A) : (n <= length a)%nat -> skipn n (a ++ b) = skipn n a ++ b.
Proof.
  intros H. rewrite skipn_app. replace (n - length a)%nat with O by lia. reflexivity.
Qed.

Lemma slice_app_l {A} f t (a b : list A) : t <= len a -> slice f t (a ++ b) = slice f t a.
Proof.
  unfold slice, take, drop, len. intros H.
  destruct (N.le_gt_cases f t) as [Hft|Hft].
  - rewrite skipn_app_le by lia. apply firstn_app_le. rewrite skipn_length. lia.
  - replace (N.to_nat (t - f)) with O by lia. reflexivity.
Qed.
Lemma slice_app_r {A} f t (a b : list A) : len a <= f -> slice f t (a ++ b) = slice (f - len a) (t - len a) b.
Proof.
  unfold slice, take, drop, len. intros H.
  rewrite skipn_app_ge by lia.
  replace (N.to_nat f - length a)%nat with (N.to_nat (f - N.of_nat (length a))) by lia.
  f_equal. lia.
Qed.
Lemma slice_all {A} (a : list A) n : n = len a -> slice 0 n a = a.
Proof.
  intros ->. unfold slice, take, drop, len. cbn [N.to_nat skipn].
  replace (N.to_nat (N.of_nat (length a) - 0)) with (length a) by lia. apply firstn_all.
Qed.
Lemma slice_prefix {A} n (a b : list A) : n = len a -> slice 0 n (a ++ b) = a.
Proof. intros ->. rewrite slice_app_l by lia. now apply slice_all. Qed.

#[export] Hint Rewrite @len_app @len_nil @len_cons @len_repeat : len.
