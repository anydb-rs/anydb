(* LazyAggVec<Sparse>.  For ALL sources and ALL mappings (any length, first-indexes past the end of the source, not even
   monotone): every range read (`agg_range_spec`), collect_one_at and the (cursor based) read_sorted_at
   over ANY index list (`agg_sorted_spec`) return the group formula `Aspec` over `range_idx`
   (LazyFromProofs.v) or the index list, and nothing panics.  That a first-index past the end of the
   source is harmless rests on the clamp `.min(source_len)` of sparse.rs (/repo commit 19edab9), which
   `a_build` and `Aspec` carry: without it Sparse::try_fold indexes `values[vi]` out of bounds. *)
From Anydb Require Import Common.Base Common.ListFacts Lazy.LazyBase Lazy.LazyBaseProofs Lazy.LazyFromProofs Lazy.LazyAgg.

(* group idx = source positions [mapping[idx], mapping[idx+1]) ∩ [0, len src) (last group: to the end);
   value = Some (last source element of the group), None for a group without source elements *)
Definition Aspec (src : list Z) (mapping : list N) (idx : N) : option (option Z) :=
  match get mapping idx with
  | None => None
  | Some cur =>
      let n := len src in
      let next := N.min (match get mapping (idx + 1) with Some h => h | None => n end) n in
      if next <=? cur then Some None else Some (get src (next - 1))
  end.

Section PA.
  Variables (src : list Z) (mapping : list N).

  Lemma Aspec_out_of_range i : a_len mapping <= i -> Aspec src mapping i = None.
  Proof. unfold a_len, Aspec. intros H. now rewrite get_none. Qed.
  Lemma Aspec_in_range i : i < a_len mapping -> exists v, Aspec src mapping i = Some v.
  Proof.
    unfold a_len, Aspec. intros H. destruct (get_some mapping i H) as [c Hc]. rewrite Hc. cbv zeta.
    destruct (_ <=? c); eauto.
  Qed.

  Lemma agg_one_spec i : a_one src mapping i = Ok (Aspec src mapping i).
  Proof.
    unfold a_one, Aspec, a_len, src_one. rewrite !getb_get.
    destruct (len mapping <=? i) eqn:E.
    { now rewrite get_none by lia. }
    destruct (get_some mapping i) as [cur Hc]; [lia|]. rewrite Hc. cbv zeta.
    set (nx := N.min _ (len src)).
    destruct (nx =? 0) eqn:E0.
    - cbn [orb]. replace (nx <=? cur) with true by lia. reflexivity.
    - cbn [orb]. destruct (nx <=? cur); reflexivity.
  Qed.

  (* a slot evaluated against the list of requested source positions instead of the values read *)
  Definition slot_val (ind : list N) (slot : option N) : ev (option Z) :=
    match slot with
    | None => EV None
    | Some vi => match get ind vi with
                 | Some x => match get src x with Some v => EV (Some v) | None => EP end
                 | None => EP
                 end
    end.

  Lemma a_build_spec idxs : forall ind sm,
    Forall (fun i => i < len mapping) idxs ->
    exists ind' sm',
      a_build mapping (len src) idxs ind sm = Some (ind ++ ind', sm ++ sm') /\
      Forall (fun x => x < len src) ind' /\
      map (slot_val (ind ++ ind')) sm' = map EV (ovals (Aspec src mapping) idxs).
  Proof.
    induction idxs as [|idx tl IH]; intros ind sm Hall.
    - exists [], []. cbn [a_build]. rewrite !app_nil_r. repeat split; auto.
    - inversion Hall as [|? ? Hidx Htl]; subst. cbn [a_build]. rewrite !getb_get.
      destruct (get_some mapping idx Hidx) as [cur Hc]. rewrite Hc.
      rewrite ovals_cons. unfold Aspec at 1. rewrite Hc. cbv zeta.
      set (nx := N.min _ (len src)).
      destruct ((nx =? 0) || (nx <=? cur)) eqn:Eg.
      + replace (nx <=? cur) with true by lia.
        destruct (IH ind (sm ++ [None]) Htl) as (ind' & sm' & Hb & Hf & Hm).
        exists ind', (None :: sm'). rewrite Hb, <- app_assoc. cbn [app map slot_val]. now rewrite Hm.
      + replace (nx <=? cur) with false by lia.
        destruct (IH (ind ++ [nx - 1]) (sm ++ [Some (len ind)]) Htl) as (ind' & sm' & Hb & Hf & Hm).
        exists ((nx - 1) :: ind'), (Some (len ind) :: sm'). rewrite Hb, <- !app_assoc in *. cbn [app] in *.
        assert (Hx : nx - 1 < len src) by (unfold nx in *; lia).
        repeat split; [constructor; auto|]. cbn [map slot_val]. rewrite get_app_len, Hm.
        now destruct (get_some src (nx - 1) Hx) as [v ->].
  Qed.

  Lemma a_try_fold_spec from to :
    to <= len mapping ->
    a_try_fold src mapping from to
    = map EV (ovals (Aspec src mapping) (seqN from (N.to_nat (to - from)))).
  Proof.
    intros Hto. unfold a_try_fold. cbv zeta.
    destruct (a_build_spec (seqN from (N.to_nat (to - from))) [] []) as (ind' & sm' & Hb & Hf & Hm).
    { apply Forall_seqN. intros i Hi. lia. }
    rewrite Hb. cbn [app] in *. rewrite <- Hm. apply map_ext. intros [vi|]; [|reflexivity].
    cbn [slot_val]. rewrite getb_get, src_sorted_ovals, get_ovals_defined.
    - destruct (get ind' vi) as [x|]; [|reflexivity]. now destruct (get src x).
    - revert Hf. apply Forall_impl. intros x Hx. now apply get_some.
  Qed.

  (* read_into_at, for_each_range_dyn_at, fold_range_at, try_fold_range_at *)
  Lemma agg_range_spec from to :
    a_range src mapping from to
    = map EV (ovals (Aspec src mapping) (range_idx (a_len mapping) from to)).
  Proof.
    unfold a_range, range_idx, a_len. cbv zeta.
    destruct (N.min to (len mapping) <=? from) eqn:E.
    - replace (N.to_nat (N.min to (len mapping) - from)) with O by lia. reflexivity.
    - apply a_try_fold_spec. lia.
  Qed.
  Lemma agg_range_run from to :
    run_all (a_range src mapping from to) = Ok (ovals (Aspec src mapping) (range_idx (a_len mapping) from to)).
  Proof. rewrite agg_range_spec. apply run_all_EV. Qed.
  Lemma agg_range_stop from to k :
    run_stop k (a_try_fold_range src mapping from to)
    = Ok (take k (ovals (Aspec src mapping) (range_idx (a_len mapping) from to)),
          k <? len (ovals (Aspec src mapping) (range_idx (a_len mapping) from to))).
  Proof. unfold a_try_fold_range. rewrite agg_range_spec. apply run_stop_EV. Qed.

  (* read_sorted_at (default: a Cursor over the vector itself) and cursor().get, for any index list *)
  Lemma agg_sorted_spec idx : a_sorted src mapping idx = Ok (ovals (Aspec src mapping) idx).
  Proof.
    unfold a_sorted. apply default_read_sorted_spec.
    - apply Aspec_in_range.
    - apply Aspec_out_of_range.
    - intros f t. unfold a_read_into. apply agg_range_run.
  Qed.
  Lemma agg_cursor_spec idx :
    cursor_gets (a_len mapping) (fun f t => run_all (a_read_into src mapping f t)) cursor_new idx
    = Ok (map (Aspec src mapping) idx).
  Proof.
    apply (cursor_gets_spec (a_len mapping) (Aspec src mapping)); [apply Aspec_in_range|apply Aspec_out_of_range| |apply cinv_new].
    intros f t. unfold a_read_into. apply agg_range_run.
  Qed.
End PA.

(* a mapping that knows first-indexes past the end of the source, a duplicate (empty group) *)
Example agg_example :
  run_all (a_range [7; 8; 9]%Z [0; 2; 2; 5; 9] 0 99) = Ok [Some 8; None; Some 9; None; None]%Z.
Proof. vm_compute. reflexivity. Qed.

(* a request far beyond the end: the capacity asked for is that of the clamped range (collect_range_ok,
   LazyBaseProofs.v), not `to - from`, which would panic with "capacity overflow" *)
Example collect_range_huge_to :
  collect_range_at 8 3 (fun _ _ => Ok [1; 2; 3]%Z) 0 usize_max = Ok [1; 2; 3]%Z.
Proof. vm_compute. reflexivity. Qed.
