(* The specification vocabulary shared by the C15 theorems.  Every read is specified as
   `ovals F idx`, the values of a defining formula F over an index list, at the indices where F is
   defined; over a sorted index list a formula that is None from some index on contributes nothing
   after it (`ovals_sorted_none`, `ovals_get_ended`).  The source contract, the element streams, the
   cursor (invariant `cinv`) and the default read_sorted_into_at are put in that form.
   Of LazyBase's Section Api only the collect wrappers have lemmas; `collect_first`, `collect_last`,
   `min_at`, `max_at`, `sum_at`, `sum_exact` are extracted (Extract/lazy.ext) and compared with the
   code by the differential runs only.
   Cursor and the default read_sorted_into_at of cursor.rs / traits/readable.rs are modelled a second time,
   as event streams that record the fetched byte ranges, in Vec/RdCursor.v for C08 / C20, with their own
   theory over the same three premises (Vec/RdCursorProofs.v, Section Generic, invariant `Inv cu`, also a
   `cursor_get_spec`): a change to cursor.rs concerns both. *)
From Coq Require Import Sorting.Sorted.
From Anydb Require Import Common.Base Common.ListFacts Gen.LazyConsts Lazy.LazyBase.

Definition ovals {B} (F : N -> option B) (idx : list N) : list B :=
  flat_map (fun i => match F i with Some v => [v] | None => [] end) idx.

Lemma ovals_cons {B} (F : N -> option B) i tl :
  ovals F (i :: tl) = match F i with Some v => v :: ovals F tl | None => ovals F tl end.
Proof. unfold ovals. cbn [flat_map]. destruct (F i); reflexivity. Qed.

Lemma ovals_app {B} (F : N -> option B) a b : ovals F (a ++ b) = ovals F a ++ ovals F b.
Proof. unfold ovals. apply flat_map_app. Qed.

Lemma ovals_ext {B} (F G : N -> option B) idx : (forall i, In i idx -> F i = G i) -> ovals F idx = ovals G idx.
Proof.
  induction idx as [|i tl IH]; intros H; [reflexivity|].
  rewrite !ovals_cons, (H i) by (left; reflexivity).
  rewrite IH by (intros j Hj; apply H; now right). reflexivity.
Qed.

Lemma ovals_none {B} (F : N -> option B) idx : (forall i, In i idx -> F i = None) -> ovals F idx = [].
Proof.
  induction idx as [|i tl IH]; intros H; [reflexivity|].
  rewrite ovals_cons, (H i) by (left; reflexivity). apply IH. intros j Hj. apply H. now right.
Qed.

Lemma ovals_sorted_none {B} (F : N -> option B) i tl :
  (forall j, i <= j -> F j = None) -> Forall (N.le i) tl -> ovals F tl = [].
Proof. intros HF H. apply ovals_none. intros j Hj. apply HF. rewrite Forall_forall in H. now apply H. Qed.

Lemma get_ovals_defined {B} (F : N -> option B) l j :
  Forall (fun x => exists v, F x = Some v) l ->
  get (ovals F l) j = match get l j with Some x => F x | None => None end.
Proof.
  intros H. revert j. induction H as [|x tl [v Hv] _ IH]; intros j.
  - now rewrite !get_none by apply N.le_0_l.
  - rewrite ovals_cons, Hv, !get_cons. destruct (j =? 0); [now rewrite Hv|apply IH].
Qed.
Lemma len_ovals_defined {B} (F : N -> option B) l :
  Forall (fun x => exists v, F x = Some v) l -> len (ovals F l) = len l.
Proof.
  induction 1 as [|x tl [v Hv] _ IH]; [reflexivity|].
  rewrite ovals_cons, Hv, !len_cons, IH. reflexivity.
Qed.

Lemma getb_get {A} (l : list A) i : getb l i = get l i.
Proof. unfold getb. destruct (N.ltb_spec i (len l)); [reflexivity|]. symmetry. now apply get_none. Qed.

Lemma get_none_mono {A} (s : list A) i : get s i = None -> forall j, i <= j -> get s j = None.
Proof. intros G j Hj. rewrite get_none_iff in *. lia. Qed.

Lemma ovals_get_ended {A} (s : list A) i tl : get s i = None -> Forall (N.le i) tl -> ovals (get s) tl = [].
Proof. intros G. apply ovals_sorted_none, get_none_mono, G. Qed.

Lemma seqN_sorted from n : StronglySorted N.le (seqN from n).
Proof.
  revert from. induction n as [|n IH]; intros from; constructor; [apply IH|].
  apply Forall_seqN. lia.
Qed.

Lemma slice_ovals {A} (s : list A) from to :
  slice from to s = ovals (get s) (seqN from (N.to_nat (to - from))).
Proof.
  unfold slice, take. generalize (N.to_nat (to - from)) as n. intros n.
  revert from; induction n as [|n IH]; intros from; [reflexivity|].
  cbn [seqN]. rewrite ovals_cons, <- IH. destruct (get s from) as [v|] eqn:G.
  - now rewrite (drop_get_cons s from v G).
  - apply get_none_iff in G. rewrite !drop_all by lia. now rewrite !firstn_nil.
Qed.

(* the clamping of both ends in read_into_at changes nothing: take and drop clamp by themselves *)
Lemma src_range_slice {A} (s : list A) from to : src_range s from to = slice from to s.
Proof.
  unfold src_range, slice. cbv zeta.
  destruct (N.leb_spec (N.min to (len s)) (N.min from (len s))).
  - destruct (N.le_gt_cases to from); [now replace (to - from) with 0 by lia|].
    rewrite drop_all by lia. symmetry. apply firstn_nil.
  - rewrite (N.min_l from) by lia. destruct (N.le_gt_cases to (len s)); [now rewrite N.min_l|].
    rewrite N.min_r by lia. now rewrite !take_all by (rewrite len_drop; lia).
Qed.

Lemma get_src_range {A} (s : list A) a b i : a <= i -> i < b -> getb (src_range s a b) (i - a) = get s i.
Proof.
  intros Hai Hib. rewrite getb_get, src_range_slice. unfold slice.
  rewrite get_take_lt, get_drop by lia. f_equal. lia.
Qed.

Lemma src_range_ovals {A} (s : list A) from to :
  src_range s from to = ovals (get s) (seqN from (N.to_nat (to - from))).
Proof. rewrite src_range_slice. apply slice_ovals. Qed.

Lemma src_sorted_ovals {A} (s : list A) idx : src_sorted s idx = ovals (get s) idx.
Proof.
  unfold src_sorted, ovals. apply flat_map_ext. intros i. now rewrite getb_get.
Qed.

Lemma run_all_EV {A} (l : list A) : run_all (map EV l) = Ok l.
Proof. induction l as [|a l IH]; cbn [map run_all]; [reflexivity|]. now rewrite IH. Qed.

Lemma run_stop_EV {A} (k : N) (l : list A) :
  run_stop k (map EV l) = Ok (take k l, k <? len l).
Proof.
  unfold run_stop. rewrite take_map, run_all_EV, len_map, len_take. f_equal. f_equal.
  - destruct (N.le_gt_cases (len l) k) as [H|H].
    + rewrite N.min_r, !take_all by (rewrite ?len_take; lia). reflexivity.
    + rewrite N.min_l, take_take by lia. reflexivity.
  - lia.
Qed.

Lemma map_EV_ovals {B} (g : N -> ev B) (F : N -> option B) l :
  (forall i, In i l -> exists v, F i = Some v /\ g i = EV v) -> map g l = map EV (ovals F l).
Proof.
  induction l as [|i tl IH]; intros H; [reflexivity|].
  destruct (H i (or_introl eq_refl)) as [v [HF Hg]].
  rewrite ovals_cons, HF. cbn [map]. rewrite Hg. f_equal. apply IH. intros j Hj. apply H. now right.
Qed.

Lemma seqN_app from a b : seqN from (a + b) = seqN from a ++ seqN (from + N.of_nat a) b.
Proof. exact (ListFacts.seqN_app from a b). Qed.

Lemma get_in {A} (l : list A) i v : get l i = Some v -> In v l.
Proof. exact (ListFacts.get_in l i v). Qed.

Section CursorSpec.
  Context {T : Type} (n : N) (F : N -> option T) (rd : N -> N -> res unit (list T)).
  Hypothesis Fdef : forall i, i < n -> exists v, F i = Some v.
  Hypothesis Fnone : forall i, n <= i -> F i = None.
  (* the index list is `range_idx n f t` of LazyFromProofs.v *)
  Hypothesis Hrd : forall f t, rd f t = Ok (ovals F (seqN f (N.to_nat (N.min t n - f)))).

  Definition cinv (c : cursor) : Prop :=
    exists k, c_buf c = ovals F (seqN (c_start c) k) /\ c_start c + N.of_nat k <= n.

  Lemma buf_spec a k : a + N.of_nat k <= n ->
    len (ovals F (seqN a k)) = N.of_nat k /\
    forall i, a <= i < a + N.of_nat k -> getb (ovals F (seqN a k)) (i - a) = F i.
  Proof.
    intros H. assert (Hdef : Forall (fun x => exists v, F x = Some v) (seqN a k)).
    { apply Forall_seqN. intros i Hi. apply Fdef. lia. }
    split; [now rewrite len_ovals_defined, len_seqN|].
    intros i Hi. rewrite getb_get, get_ovals_defined, get_seqN by exact Hdef.
    destruct (N.ltb_spec (i - a) (N.of_nat k)); [f_equal|]; lia.
  Qed.

  Lemma cursor_get_spec c i : cinv c -> exists c', cursor_get n rd c i = Ok (c', F i) /\ cinv c'.
  Proof.
    intros [k [Hb Hk]]. unfold cursor_get.
    destruct (N.leb_spec n i) as [E|E].
    { exists c. rewrite Fnone by exact E. split; [reflexivity|exists k; auto]. }
    destruct (Fdef i E) as [v Hv]. destruct (buf_spec _ _ Hk) as [Hlen Hget]. rewrite Hb, Hlen.
    destruct ((c_start c <=? i) && (i <? c_start c + N.of_nat k)) eqn:Ein.
    - rewrite Hget, Hv by lia. exists c. split; [reflexivity|exists k; auto].
    - (* refill: the chunk that contains i, cut at n *)
      set (aligned := i / READ_CHUNK_SIZE * READ_CHUNK_SIZE).
      set (e := N.min (aligned + READ_CHUNK_SIZE) n).
      assert (Hal : aligned <= i /\ i < aligned + READ_CHUNK_SIZE).
      { unfold aligned, READ_CHUNK_SIZE. lia. }
      rewrite Hrd. replace (N.min e n) with e by (unfold e; lia).
      set (k' := N.to_nat (e - aligned)).
      assert (Hk' : aligned + N.of_nat k' <= n /\ i - aligned < N.of_nat k') by (unfold k', e; lia).
      destruct (buf_spec aligned k' (proj1 Hk')) as [Hlen' Hget'].
      destruct (ovals F (seqN aligned k')) as [|b0 bt] eqn:Eb.
      + rewrite len_nil in Hlen'. lia.
      + rewrite Hget', Hv by lia. eexists. split; [reflexivity|].
        exists k'. cbn [c_start c_buf]. split; [now rewrite Eb|lia].
  Qed.

  Lemma cursor_gets_spec idx c : cinv c -> cursor_gets n rd c idx = Ok (map F idx).
  Proof.
    revert c; induction idx as [|i tl IH]; intros c Hc; [reflexivity|].
    cbn [cursor_gets map]. destruct (cursor_get_spec c i Hc) as [c' [Hg Hc']].
    rewrite Hg, (IH c' Hc'). reflexivity.
  Qed.

  Lemma cinv_new : cinv cursor_new.
  Proof using. exists O. split; [reflexivity|exact (N.le_0_l n)]. Qed.

  (* any index list, in any order *)
  Lemma default_read_sorted_spec idx : default_read_sorted n rd idx = Ok (ovals F idx).
  Proof.
    unfold default_read_sorted, ovals. rewrite (cursor_gets_spec idx _ cinv_new).
    now rewrite !flat_map_concat_map, map_map.
  Qed.
End CursorSpec.

(* ReadableVec::collect_range_dyn (readable.rs:251): the capacity is computed from the clamped range: for
   every vector whose len() * size_of::<T>() fits isize (any vector that can be collected at all) every
   request is passed through to read_into_at *)
Lemma collect_range_ok {T} esz vlen (rd : N -> N -> res unit (list T)) from to :
  vlen * esz <= isize_max -> collect_range_at esz vlen rd from to = rd from to.
Proof.
  intros H. unfold collect_range_at, collect_range_dyn, cap_overflows.
  replace (isize_max <? (N.min to vlen - from) * esz) with false by nia. reflexivity.
Qed.
Lemma collect_signed_ok {T} esz vlen (rd : N -> N -> res unit (list T)) from to :
  vlen * esz <= isize_max ->
  exists f t', f <= vlen /\ t' <= vlen /\ collect_signed_range esz vlen rd from to = rd f t'.
Proof.
  intros H. unfold collect_signed_range.
  assert (Hb : forall i, i64_to_usize i vlen <= vlen).
  { intros i. unfold i64_to_usize. destruct (0 <=? i)%Z eqn:E0; [lia|]. destruct (Z.of_N vlen + i <? 0)%Z eqn:E; lia. }
  do 2 eexists. repeat split; [| |now apply collect_range_ok]; [destruct from|destruct to]; cbv iota; auto; lia.
Qed.
Lemma collect_all_ok {T} esz vlen (rd : N -> N -> res unit (list T)) :
  vlen * esz <= isize_max -> collect_all esz vlen rd = rd 0 vlen.
Proof. intros H. unfold collect_all. now apply collect_range_ok. Qed.
