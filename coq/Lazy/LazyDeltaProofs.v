(* LazyDeltaVec (DeltaSub on integers, DeltaChange on u32).  For all sources, all monotone
   window-start mappings whose windows do not start after their index (`wf_starts`: DeltaSub
   start <= h + 1, i.e. empty windows included; DeltaChange start <= h), of any length (shorter or
   longer than the source), with or without overflow checks, every read evaluates to the defining
   formula `Dspec` and nothing panics: the range reads (read_into_at, for_each_range_dyn_at,
   fold_range_at, try_fold_range_at incl. early exit), collect_one_at, the cursor, and
   read_sorted_into_at over ANY index list, for EVERY arrangement of the reads that
   sort_unstable_by_key may produce (every permutation), in particular for the model's insertion sort.
   A window start beyond index + 1 is outside the property (not a window); `delta_start_cap_needed` shows
   that the hypothesis cannot be dropped. *)
From Coq Require Import Sorting.Permutation Sorting.Sorted.
From Anydb Require Import Common.Base Common.ListFacts Lazy.LazyBase Lazy.LazyBaseProofs Lazy.LazyFromProofs Lazy.LazyDelta.

Definition Dspec (t : ety) (op : dop) (src : list Z) (starts : list N) (h : N) : option Z :=
  if (h <? len src) && (h <? len starts) then
    match get starts h, get src h with
    | Some start, Some cur =>
        match ago_index op start with
        | Some a => match get src a with Some ago => Some (combine t op cur ago) | None => None end
        | None => Some (combine t op cur 0%Z)
        end
    | _, _ => None
    end
  else None.

(* an inclusive window (DeltaSub) may be empty: start = h + 1 *)
Definition start_cap (op : dop) (h : N) : N := match op with DSub => h + 1 | DChg => h end.
Definition wf_starts (op : dop) (src : list Z) (starts : list N) : Prop :=
  (forall i j a b, i <= j -> get starts i = Some a -> get starts j = Some b -> a <= b) /\
  (forall h st, h < len src -> get starts h = Some st -> st <= start_cap op h).
Definition mono_starts (starts : list N) : Prop :=
  forall i j a b, i <= j -> get starts i = Some a -> get starts j = Some b -> a <= b.

Lemma sorted_mono_starts starts : StronglySorted N.le starts -> mono_starts starts.
Proof.
  induction 1 as [|x tl _ IH Hall]; intros i j a b Hij Ha Hb.
  - now rewrite get_none in Ha by apply N.le_0_l.
  - rewrite get_cons in Ha, Hb. destruct (N.eqb_spec j 0) as [->|Hj].
    + replace (i =? 0) with true in Ha by lia. injection Ha as <-. injection Hb as <-. lia.
    + destruct (N.eqb_spec i 0).
      * injection Ha as <-. rewrite Forall_forall in Hall. apply Hall. eapply get_in, Hb.
      * apply (IH (i - 1) (j - 1)); [lia|assumption..].
Qed.

Lemma get_snoc_last {A} (l : list A) x : 0 < len (l ++ [x]) /\ get (l ++ [x]) (len (l ++ [x]) - 1) = Some x.
Proof. rewrite len_app. change (len [x]) with 1. rewrite N.add_sub. split; [lia|apply get_app_len]. Qed.

Section PD.
  Variables (ovf : bool) (t : ety) (op : dop) (src : list Z) (starts : list N).
  Hypothesis WF : wf_starts op src starts.

  Let L := N.min (len src) (len starts).
  Let D := Dspec t op src starts.

  Lemma delta_at h : h < L ->
    exists st cur av, get starts h = Some st /\ get src h = Some cur /\ count_panics ovf op h st = false /\
      D h = Some (combine t op cur av) /\
      match ago_index op st with Some a => a <= h /\ get src a = Some av | None => ago_default op = EV av end.
  Proof.
    intros Hh. unfold L in Hh.
    destruct (get_some starts h) as [st Hst]; [lia|]. destruct (get_some src h) as [cur Hcur]; [lia|].
    destruct WF as [_ Hcap]. pose proof (Hcap h st ltac:(lia) Hst) as Hc. unfold start_cap in Hc.
    exists st, cur. unfold D, Dspec. rewrite Hst, Hcur, (proj2 (N.ltb_lt h (len src))), (proj2 (N.ltb_lt h (len starts))) by lia.
    destruct op; cbn [andb ago_index count_panics]; [destruct (N.eqb_spec st 0)|].
    - exists 0%Z. auto 6.
    - destruct (get_some src (st - 1)) as [av Hav]; [lia|]. exists av. rewrite Hav. repeat split; auto. lia.
    - destruct (get_some src st) as [av Hav]; [lia|]. exists av. rewrite Hav, (proj2 (N.ltb_ge h st)), andb_false_r by lia. auto 6.
  Qed.

  Lemma d_elem_spec from to s0 i :
    from <= i -> i < to -> to <= len src -> to <= len starts -> get starts from = Some s0 ->
    let read_from := N.min (match ago_index op s0 with Some a => a | None => 0 end) from in
    exists v, D i = Some v /\
              d_elem ovf t op starts read_from (src_range src read_from to) i = EV v.
  Proof.
    intros Hfi Hit Hts Htm Hs0 read_from. pose proof WF as [Hmono _].
    destruct (delta_at i) as (start & cur & av & Hst & Hcur & Hcnt & HD & Hago); [unfold L; lia|].
    pose proof (Hmono from i s0 start Hfi Hs0 Hst) as Hss.
    assert (Hrf : read_from <= from) by (unfold read_from; lia).
    exists (combine t op cur av). split; [exact HD|].
    unfold d_elem. rewrite getb_get, Hst, (get_src_range src read_from to i), Hcur by lia.
    destruct (ago_index op start) as [idx|] eqn:Hagoi.
    - destruct Hago as (Hi2 & Hav).
      (* the earliest read of the batch is at or before every ago position: starts are monotone *)
      assert (Hi1 : read_from <= idx).
      { unfold read_from, ago_index in *. destruct op.
        - destruct (start =? 0) eqn:E0; [discriminate|]. injection Hagoi as <-.
          destruct (s0 =? 0) eqn:E1; lia.
        - injection Hagoi as <-. lia. }
      now rewrite (proj2 (N.ltb_ge idx read_from) Hi1), (get_src_range src read_from to idx), Hav, Hcnt by lia.
    - now rewrite Hago, Hcnt.
  Qed.

  (* all four range methods (read_into_at, for_each_range_dyn_at, fold_range_at, try_fold_range_at) *)
  Lemma delta_range_spec from to :
    d_range ovf t op src starts from to = map EV (ovals D (range_idx L from to)).
  Proof.
    unfold d_range, range_idx, d_len, L. cbv zeta.
    replace (N.min (N.min to (N.min (len src) (len starts))) (len starts))
      with (N.min to (N.min (len src) (len starts))) by lia.
    set (to' := N.min to (N.min (len src) (len starts))).
    destruct (to' <=? from) eqn:E.
    - replace (N.to_nat (to' - from)) with O by lia. reflexivity.
    - unfold d_bulk. rewrite E.
      destruct (get_some starts from) as [s0 Hs0]; [unfold to' in *; lia|].
      rewrite getb_get, Hs0.
      apply map_EV_ovals. intros i Hi. apply in_seqN in Hi.
      apply (d_elem_spec from to' s0 i); unfold to' in *; try lia. exact Hs0.
  Qed.

  Lemma delta_range_run from to :
    run_all (d_range ovf t op src starts from to) = Ok (ovals D (range_idx L from to)).
  Proof. rewrite delta_range_spec. apply run_all_EV. Qed.
  Lemma delta_range_stop from to k :
    run_stop k (d_try_fold ovf t op src starts from to)
    = Ok (take k (ovals D (range_idx L from to)), k <? len (ovals D (range_idx L from to))).
  Proof. unfold d_try_fold. rewrite delta_range_spec. apply run_stop_EV. Qed.

  Lemma Dspec_out_of_range i : L <= i -> D i = None.
  Proof.
    unfold L, D, Dspec. intros H.
    replace ((i <? len src) && (i <? len starts)) with false by lia. reflexivity.
  Qed.
  Lemma Dspec_in_range i : i < L -> exists v, D i = Some v.
  Proof.
    intros H. destruct (delta_at i H) as (st & cur & av & _ & _ & _ & HD & _). eauto.
  Qed.

  Lemma delta_one_spec i : d_one ovf t op src starts i = Ok (D i).
  Proof.
    unfold d_one, d_len, src_one.
    destruct (N.leb_spec (N.min (len src) (len starts)) i) as [E1|E1].
    { now rewrite Dspec_out_of_range. }
    destruct (N.leb_spec (len starts) i); [lia|].
    destruct (delta_at i E1) as (start & cur & av & Hst & Hcur & Hcnt & -> & Hago).
    rewrite !getb_get, Hst, Hcur.
    destruct (ago_index op start) as [idx|]; [now rewrite getb_get, (proj2 Hago), Hcnt|now rewrite Hago, Hcnt].
  Qed.

  (* cursor().get over the vector: its len() is L *)
  Lemma delta_cursor_spec idx :
    cursor_gets (d_len src starts) (fun f t' => run_all (d_read_into ovf t op src starts f t')) cursor_new idx
    = Ok (map D idx).
  Proof.
    apply (cursor_gets_spec L D); [apply Dspec_in_range|apply Dspec_out_of_range| |apply cinv_new].
    intros f t'. unfold d_read_into. apply delta_range_run.
  Qed.

  (* read_sorted_into_at.  1. the reads built from the index list: slots within the request, positions
     within the source, and no two reads of the same (slot, is_current) *)
  Definition read_ok (lo hi : N) (r : read) : Prop := lo <= r_slot r < hi /\ r_pos r < len src.

  Lemma d_reads_spec idx : forall slot0,
    exists reads, d_reads op starts L slot0 idx = Some reads /\
      Forall (read_ok slot0 (slot0 + len idx)) reads /\ NoDup (map snd reads).
  Proof.
    induction idx as [|h tl IH]; intros slot0.
    - exists []. repeat constructor.
    - destruct (IH (slot0 + 1)) as (rest & Hr & Hf & Hn). cbn [d_reads]. rewrite Hr, len_cons.
      assert (Hf' : Forall (read_ok slot0 (slot0 + (1 + len tl))) rest).
      { revert Hf. apply Forall_impl. unfold read_ok. intros r H. lia. }
      assert (Hnot : forall b, ~ In (slot0, b) (map snd rest)).
      { intros b Hin. apply in_map_iff in Hin as (r & Hs & Hin). rewrite Forall_forall in Hf.
        destruct (Hf r Hin) as [H1 _]. unfold r_slot in H1. rewrite Hs in H1. cbn [fst] in H1. lia. }
      destruct (h <? L) eqn:Eh; [|exists rest; auto].
      destruct (delta_at h) as (st & cur & av & Hst & Hcur & _ & _ & Hago); [lia|]. rewrite getb_get, Hst.
      apply get_some_lt in Hcur.
      assert (Hh : forall b p, p < len src -> read_ok slot0 (slot0 + (1 + len tl)) (p, (slot0, b))).
      { intros b p Hp. split; [cbn; lia|exact Hp]. }
      destruct (ago_index op st) as [a|]; eexists; (split; [reflexivity|]).
      + destruct Hago as [_ Ha]. apply get_some_lt in Ha. split; [auto|].
        cbn [map snd]. constructor; [|constructor; auto].
        intros [Heq|Hin]; [discriminate|]. exact (Hnot true Hin).
      + split; [auto|]. cbn [map snd]. constructor; auto.
  Qed.

  (* 2. positions / val_indices: every read finds its own position, however the reads are arranged.
     The position is appended unless it is already the last one. *)
  Lemma d_dedup_step_spec P V (r : read) : exists e,
    d_dedup_step (P, V) r = (P ++ e, V ++ [len (P ++ e) - 1]) /\
    get (P ++ e) (len (P ++ e) - 1) = Some (r_pos r) /\ 0 < len (P ++ e) /\
    (forall x, In x e -> x = r_pos r).
  Proof.
    unfold d_dedup_step, last_opt. destruct (get_snoc_last P (r_pos r)) as [H0 Hg].
    assert (Hnew : forall x, In x [r_pos r] -> x = r_pos r) by (intros x [<-|[]]; reflexivity).
    destruct P as [|p P0 _] using rev_ind.
    - exists [r_pos r]. repeat split; auto.
    - rewrite rev_unit. destruct (N.eqb_spec p (r_pos r)) as [->|].
      + exists []. rewrite app_nil_r. destruct (get_snoc_last P0 (r_pos r)). repeat split; auto. intros x [].
      + exists [r_pos r]. repeat split; auto.
  Qed.

  Lemma d_dedup_spec rs : forall P V, exists Pe Ve,
    fold_left d_dedup_step rs (P, V) = (P ++ Pe, V ++ Ve) /\
    (forall x, In x Pe -> exists r, In r rs /\ x = r_pos r) /\
    Forall2 (fun r vi => get (P ++ Pe) vi = Some (r_pos r)) rs Ve.
  Proof.
    induction rs as [|r rt IH]; intros P V.
    - exists [], []. cbn [fold_left]. rewrite !app_nil_r. repeat split; auto. intros x [].
    - destruct (d_dedup_step_spec P V r) as (e & Hs & Hg & H0 & He). cbn [fold_left]. rewrite Hs.
      destruct (IH (P ++ e) (V ++ [len (P ++ e) - 1])) as (Pe & Ve & Hf & Hin & Hall).
      exists (e ++ Pe), ((len (P ++ e) - 1) :: Ve). rewrite Hf, <- !app_assoc in *. repeat split; [|constructor; [|exact Hall]].
      + intros x Hx. apply in_app_or in Hx as [Hx|Hx].
        * exists r. split; [now left|now apply He].
        * destruct (Hin x Hx) as (r' & Hr' & Hx'). exists r'. split; [now right|exact Hx'].
      + (* later appends do not move the position found now *)
        rewrite app_assoc, get_app_l by lia. exact Hg.
  Qed.

  (* 3. current_vi / ago_vi *)
  Lemma set_at_spec l i v : i < len l -> exists l',
    set_at l i v = Some l' /\ len l' = len l /\ get l' i = Some v /\ (forall j, j <> i -> get l' j = get l j).
  Proof.
    intros H. unfold set_at. replace (i <? len l) with true by lia. eexists. split; [reflexivity|].
    rewrite len_set_nth. repeat split.
    - now rewrite get_set_nth, N.eqb_refl.
    - intros j Hj. rewrite get_set_nth by exact H. now destruct (N.eqb_spec j i).
  Qed.

  (* the table a read stores into: current_vi or ago_vi *)
  Definition sel (b : bool) (cur ago : list N) : list N := if b then cur else ago.

  Lemma d_fill_step (r : read) vi cur ago :
    r_slot r < len cur -> r_slot r < len ago ->
    exists cur1 ago1,
      (forall rt vt, d_fill (r :: rt) (vi :: vt) cur ago = d_fill rt vt cur1 ago1) /\
      len cur1 = len cur /\ len ago1 = len ago /\
      get (sel (r_cur r) cur1 ago1) (r_slot r) = Some vi /\
      forall s b, (s, b) <> snd r -> get (sel b cur1 ago1) s = get (sel b cur ago) s.
  Proof.
    intros Hc Ha. destruct r as [pos [slot []]]; cbn [d_fill]; unfold r_cur, r_slot in *; cbn [fst snd sel] in *.
    - destruct (set_at_spec cur slot vi Hc) as (cur1 & Hs & Hl & Hg & Ho). exists cur1, ago. rewrite Hs.
      repeat split; auto. intros s [] Hne; [apply Ho; congruence|reflexivity].
    - destruct (set_at_spec ago slot vi Ha) as (ago1 & Hs & Hl & Hg & Ho). exists cur, ago1. rewrite Hs.
      repeat split; auto. intros s [] Hne; [reflexivity|apply Ho; congruence].
  Qed.

  (* after the fill every read finds, in its table at its slot, the value index paired with it; Q is
     whatever the pairing is known to satisfy *)
  Lemma d_fill_spec (Q : read -> N -> Prop) rs vis : Forall2 Q rs vis -> forall cur ago,
    Forall (fun r => r_slot r < len cur /\ r_slot r < len ago) rs -> NoDup (map snd rs) ->
    exists cur' ago', d_fill rs vis cur ago = Some (cur', ago') /\
      (forall r, In r rs -> exists vi, get (sel (r_cur r) cur' ago') (r_slot r) = Some vi /\ Q r vi) /\
      (forall s b, ~ In (s, b) (map snd rs) -> get (sel b cur' ago') s = get (sel b cur ago) s).
  Proof.
    induction 1 as [|r vi rt vt HQ _ IH]; intros cur ago Hsl Hnd.
    - exists cur, ago. repeat split; auto. intros r [].
    - inversion Hsl as [|? ? [Hc Ha] Hsl']; subst. cbn [map] in Hnd. inversion Hnd as [|? ? Hnotin Hnd']; subst.
      destruct (d_fill_step r vi cur ago Hc Ha) as (cur1 & ago1 & Hstep & Hl1 & Hl2 & Hg & Ho).
      destruct (IH cur1 ago1) as (cur' & ago' & Hf & Hin & Hfr); [|exact Hnd'|].
      { revert Hsl'. apply Forall_impl. intros r' H. now rewrite Hl1, Hl2. }
      exists cur', ago'. rewrite Hstep. split; [exact Hf|]. split.
      + intros r' [<-|Hin']; [|now apply Hin]. exists vi. split; [|exact HQ].
        destruct r as [pos [slot b]]. unfold r_cur, r_slot in *. cbn [fst snd] in *. now rewrite Hfr.
      + intros s b Hs. cbn [map In] in Hs. rewrite Hfr, Ho by (intros E; apply Hs; auto). reflexivity.
  Qed.

  (* 4. the output loop, given that every read finds its value through current_vi / ago_vi *)
  Definition resolves (vals : list Z) (cur ago : list N) (r : read) : Prop :=
    exists vi, get (sel (r_cur r) cur ago) (r_slot r) = Some vi /\ getb vals vi = get src (r_pos r).

  Lemma d_emit_spec vals cur ago : forall idx slot0 reads,
    d_reads op starts L slot0 idx = Some reads -> Forall (resolves vals cur ago) reads ->
    d_emit ovf t op starts L vals cur ago slot0 idx = map EV (ovals D idx).
  Proof.
    induction idx as [|h tl IH]; intros slot0 reads Hr Hl; [reflexivity|].
    cbn [d_reads] in Hr. destruct (d_reads op starts L (slot0 + 1) tl) as [rest|] eqn:Erest; [|discriminate].
    specialize (IH (slot0 + 1) rest Erest). cbn [d_emit]. rewrite ovals_cons.
    destruct (h <? L) eqn:Eh.
    - replace (L <=? h) with false by lia.
      destruct (delta_at h) as (st & cv & av & Hst & Hcv & Hcnt & -> & Hago); [lia|].
      rewrite getb_get, Hst in Hr |- *.
      destruct (ago_index op st) as [a|]; injection Hr as <-;
        inversion Hl as [|? ? (cvi & Hc1 & Hc2) Hl1]; subst.
      + destruct Hago as [_ Hav]. inversion Hl1 as [|? ? (avi & Ha1 & Ha2) Hl2]; subst.
        unfold r_cur, r_slot, r_pos in *. cbn [fst snd sel] in *.
        rewrite !getb_get, Hc1, Hc2, Hcv, Ha1, Ha2, Hav, Hcnt. cbn [map]. f_equal. now apply IH.
      + unfold r_cur, r_slot, r_pos in *. cbn [fst snd sel] in *.
        rewrite !getb_get, Hc1, Hc2, Hcv, Hago, Hcnt. cbn [map]. f_equal. now apply IH.
    - replace (L <=? h) with true by lia. injection Hr as <-.
      rewrite Dspec_out_of_range by lia. now apply IH.
  Qed.

  (* 5. everything after the sort, for EVERY arrangement of the reads *)
  Lemma delta_sorted_with_spec idx reads rs :
    d_reads op starts L 0 idx = Some reads -> Permutation reads rs ->
    d_sorted_with ovf t op src starts idx rs = Ok (ovals D idx).
  Proof.
    intros Hr Hperm.
    destruct (d_reads_spec idx 0) as (reads' & Hr' & Hok & Hnd). rewrite Hr in Hr'. injection Hr' as <-.
    apply (Permutation_Forall Hperm) in Hok. rewrite Forall_forall in Hok.
    apply (Permutation_NoDup (Permutation_map snd Hperm)) in Hnd.
    unfold d_sorted_with. cbv zeta.
    replace (N.min (d_len src starts) (len starts)) with L by (unfold d_len, L; lia).
    unfold d_dedup. destruct (d_dedup_spec rs [] []) as (Pe & Ve & Hf & Hin & Hall). rewrite Hf. cbn [app] in *.
    assert (Hpos : Forall (fun x => exists v, get src x = Some v) Pe).
    { apply Forall_forall. intros x Hx. destruct (Hin x Hx) as (r & Hr1 & ->). apply get_some, (Hok r Hr1). }
    destruct (d_fill_spec (fun r vi => get Pe vi = Some (r_pos r)) rs Ve Hall (repeat 0 (length idx)) (repeat 0 (length idx)))
      as (cur & ago & Hfill & Hlk & _);
      [|exact Hnd|].
    { apply Forall_forall. intros r Hr1. destruct (Hok r Hr1) as [[_ H2] _]. rewrite len_repeat. split; exact H2. }
    rewrite Hfill, (d_emit_spec (src_sorted src Pe) cur ago idx 0 reads Hr); [apply run_all_EV|].
    apply (Permutation_Forall (Permutation_sym Hperm)), Forall_forall. intros r Hr1.
    destruct (Hlk r Hr1) as (vi & Hg1 & Hg2). exists vi. split; [exact Hg1|].
    rewrite getb_get, src_sorted_ovals, get_ovals_defined by exact Hpos. now rewrite Hg2.
  Qed.

  (* the model's sort is one such arrangement *)
  Lemma ins_read_perm r l : Permutation (r :: l) (ins_read r l).
  Proof.
    induction l as [|x tl IH]; cbn [ins_read]; [reflexivity|].
    destruct (r_pos r <=? r_pos x); [reflexivity|].
    etransitivity; [apply perm_swap|]. now constructor.
  Qed.
  Lemma sort_reads_perm l : Permutation l (sort_reads l).
  Proof.
    unfold sort_reads. induction l as [|r tl IH]; cbn [fold_right]; [reflexivity|].
    etransitivity; [|apply ins_read_perm]. now constructor.
  Qed.

  Lemma delta_sorted_spec idx : d_sorted ovf t op src starts idx = Ok (ovals D idx).
  Proof.
    unfold d_sorted. destruct idx as [|i0 tl]; [reflexivity|]. cbv zeta.
    replace (N.min (d_len src starts) (len starts)) with L by (unfold d_len, L; lia).
    destruct (d_reads_spec (i0 :: tl) 0) as [reads [Hr _]]. rewrite Hr.
    apply (delta_sorted_with_spec (i0 :: tl) reads); [exact Hr|apply sort_reads_perm].
  Qed.
End PD.

(* delta_sorted_with_spec as Props/C15.v quotes it: every outcome of sort_unstable_by_key is a permutation
   of the reads, so the result does not depend on it *)
Lemma delta_sorted_any_order ovf t op src starts idx reads rs :
  wf_starts op src starts ->
  d_reads op starts (N.min (len src) (len starts)) 0 idx = Some reads -> Permutation reads rs ->
  d_sorted_with ovf t op src starts idx rs = Ok (ovals (Dspec t op src starts) idx).
Proof. intros WF. now apply delta_sorted_with_spec. Qed.

(* Why the cap on the window start is a hypothesis: a start running ahead of the index by more than an
   empty window (monotone!) is not a window; the bulk read then indexes the collected slice out of
   bounds while collect_one_at still answers *)
Lemma delta_start_cap_needed :
  exists src starts,
    mono_starts starts /\ ~ wf_starts DSub src starts /\
    run_all (d_range false U64 DSub src starts 0 1) = Panic /\
    d_one false U64 DSub src starts 0 = Ok (Some 0%Z).
Proof.
  exists [1; 2; 3]%Z, [3; 3; 3]. split; [|split; [|vm_compute; auto]].
  - apply sorted_mono_starts. repeat constructor; discriminate.
  - intros [_ Hcap]. specialize (Hcap 0 3). unfold len, start_cap in Hcap. cbn in Hcap.
    specialize (Hcap ltac:(lia) eq_refl). lia.
Qed.

(* empty windows (start = h + 1) are fine with and without overflow checks: DeltaSub::count is
   `(h + 1).saturating_sub(start)` (/repo commit a89006f), not `h - start + 1`, which underflows here *)
Example delta_empty_window ovf : run_all (d_range ovf U64 DSub [5%Z] [1] 0 1) = Ok [0%Z].
Proof. destruct ovf; vm_compute; reflexivity. Qed.

(* the hypotheses are satisfiable: a sliding window of width 2 over a cumulative source, with an empty
   window, a mapping longer than the source *)
Example wf_example : wf_starts DSub [1; 3; 6; 10]%Z [0; 0; 1; 4; 4; 4].
Proof.
  split.
  - apply sorted_mono_starts. repeat constructor; discriminate.
  - intros h st Hh Hs. unfold len in Hh. cbn in Hh. unfold start_cap.
    assert (Hi : h = 0 \/ h = 1 \/ h = 2 \/ h = 3) by lia.
    destruct Hi as [-> | [-> | [-> | ->]]]; vm_compute in Hs; inversion Hs; lia.
Qed.
Example sorted_example :
  d_sorted true U64 DSub [1; 3; 6; 10]%Z [0; 0; 1; 4; 4; 4] [0; 2; 2; 3; 7] = Ok [1; 5; 5; 0]%Z.
Proof. vm_compute. reflexivity. Qed.
