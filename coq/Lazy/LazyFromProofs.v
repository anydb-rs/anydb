(* Every read path of LazyVecFrom1/2/3 equals the defining formula (`F1`, `F2`, `F3`:
   `compute(i, s1[i], …)` where every source has i) over the in-range indices
   `range_idx len from to` (the index list of LazyDeltaProofs.v and LazyAggProofs.v as well), for all
   sources (any lengths, equal or not), all counting flags, all ranges and all sorted index lists;
   the cursor only when every source governs the length.  From2 and From3 are From1 over the zipped
   sources (`zip_ovals`).  The read paths return plain lists/options: the model gives them no Panic
   outcome, so there is no statement about panics here. *)
From Coq Require Import Sorting.Sorted.
From Anydb Require Import Common.Base Common.ListFacts Lazy.LazyBase Lazy.LazyBaseProofs Lazy.LazyFrom.

Definition F1 {A B} (f : N -> A -> B) (s : list A) (i : N) : option B :=
  match get s i with Some v => Some (f i v) | None => None end.
Definition F2 {A1 A2 B} (f : N -> A1 -> A2 -> B) (s1 : list A1) (s2 : list A2) (i : N) : option B :=
  match get s1 i, get s2 i with Some a, Some b => Some (f i a b) | _, _ => None end.
Definition F3 {A1 A2 A3 B} (f : N -> A1 -> A2 -> A3 -> B) (s1 : list A1) (s2 : list A2) (s3 : list A3) (i : N)
  : option B :=
  match get s1 i, get s2 i, get s3 i with Some a, Some b, Some c => Some (f i a b c) | _, _, _ => None end.

Definition range_idx (n from to : N) : list N := seqN from (N.to_nat (N.min to n - from)).

Lemma range_idx_clamp n from to : range_idx n from (N.min to n) = range_idx n from to.
Proof. unfold range_idx. now rewrite <- N.min_assoc, N.min_id. Qed.
Lemma range_idx_empty n from to : N.min to n <= from -> range_idx n from to = [].
Proof. intros H. unfold range_idx. now replace (N.to_nat (N.min to n - from)) with O by lia. Qed.

(* sorted: past the first index that one source lacks, that source has none of the indices, so both
   sides end there *)
Lemma zip_ovals {A1 A2} (s1 : list A1) (s2 : list A2) idx :
  StronglySorted N.le idx ->
  combine (ovals (get s1) idx) (ovals (get s2) idx) = ovals (get (combine s1 s2)) idx.
Proof.
  induction 1 as [|i tl Hs IH Hall]; [reflexivity|].
  rewrite !ovals_cons. pose proof (ovals_get_ended (combine s1 s2) i tl) as Ez. rewrite get_combine in Ez |- *.
  destruct (get s1 i) eqn:G1; [destruct (get s2 i) eqn:G2|].
  - cbn [combine]. now rewrite IH.
  - now rewrite (ovals_get_ended s2 i tl), Ez.
  - now rewrite (ovals_get_ended s1 i tl), Ez.
Qed.

Section P1.
  Context {A B : Type} (f : N -> A -> B) (s : list A).

  Lemma F1_ended i tl : get s i = None -> Forall (N.le i) tl -> ovals (F1 f s) tl = [].
  Proof.
    intros G. apply ovals_sorted_none. intros j Hj. unfold F1. now rewrite (get_none_mono s i G j Hj).
  Qed.

  Lemma mapi_ovals n from :
    mapi_from from f (ovals (get s) (seqN from n)) = ovals (F1 f s) (seqN from n).
  Proof.
    revert from; induction n as [|n IH]; intros from; [reflexivity|].
    cbn [seqN]. rewrite !ovals_cons. unfold F1 at 1. destruct (get s from) as [v|] eqn:G.
    - cbn [mapi_from]. f_equal. apply IH.
    - assert (Hall : Forall (N.le from) (seqN (from + 1) n)) by (apply Forall_seqN; lia).
      now rewrite (ovals_get_ended s from _ G Hall), (F1_ended from _ G Hall).
  Qed.

  Lemma f1_body from to :
    mapi_from from f (src_range s from to) = ovals (F1 f s) (seqN from (N.to_nat (to - from))).
  Proof. rewrite src_range_ovals. apply mapi_ovals. Qed.

  (* by conversion: f1_for_each and range_idx unfold to the two sides of f1_body at N.min to (f1_len s) *)
  Lemma f1_for_each_spec from to : f1_for_each f s from to = ovals (F1 f s) (range_idx (f1_len s) from to).
  Proof. apply f1_body. Qed.
  Lemma f1_read_into_spec from to : f1_read_into f s from to = ovals (F1 f s) (range_idx (f1_len s) from to).
  Proof. unfold f1_read_into. cbv zeta. now rewrite f1_for_each_spec, range_idx_clamp. Qed.
  Lemma f1_try_fold_spec from to : f1_try_fold f s from to = ovals (F1 f s) (range_idx (f1_len s) from to).
  Proof.
    unfold f1_try_fold. cbv zeta. destruct (N.leb_spec (N.min to (f1_len s)) from) as [H|_].
    - now rewrite range_idx_empty.
    - apply f1_body.
  Qed.
  Lemma f1_one_spec i : f1_one f s i = F1 f s i.
  Proof. unfold f1_one, src_one, F1. now rewrite getb_get. Qed.
  Lemma F1_out_of_range i : f1_len s <= i -> F1 f s i = None.
  Proof. intros H. unfold F1. now rewrite get_none. Qed.
  Lemma F1_defined i : i < f1_len s -> exists v, F1 f s i = Some v.
  Proof. intros H. destruct (get_some s i H) as [v Hv]. unfold F1. rewrite Hv. eauto. Qed.

  Lemma f1_sorted_spec idx : StronglySorted N.le idx -> f1_sorted f s idx = ovals (F1 f s) idx.
  Proof.
    unfold f1_sorted. rewrite src_sorted_ovals.
    induction 1 as [|i tl Hs IH Hall]; [reflexivity|].
    rewrite !ovals_cons. unfold F1 at 1. destruct (get s i) as [v|] eqn:G.
    - cbn [combine map fst snd]. f_equal. exact IH.
    - now rewrite (ovals_get_ended s i tl G Hall), (F1_ended i tl G Hall).
  Qed.
End P1.

Section P2.
  Context {A1 A2 B : Type} (f : N -> A1 -> A2 -> B) (c1 c2 : bool) (s1 : list A1) (s2 : list A2).

  Let g (i : N) (p : A1 * A2) : B := f i (fst p) (snd p).

  Lemma F2_F1 i : F2 f s1 s2 i = F1 g (combine s1 s2) i.
  Proof. unfold F2, F1. rewrite get_combine. now destruct (get s1 i), (get s2 i). Qed.

  Lemma f2_body from to :
    mapi_from from g (combine (src_range s1 from to) (src_range s2 from to))
    = ovals (F2 f s1 s2) (seqN from (N.to_nat (to - from))).
  Proof.
    rewrite !src_range_ovals, zip_ovals, mapi_ovals by apply seqN_sorted.
    apply ovals_ext. intros i _. symmetry. apply F2_F1.
  Qed.

  Let L := f2_len c1 c2 s1 s2.

  Lemma f2_for_each_spec from to : f2_for_each f c1 c2 s1 s2 from to = ovals (F2 f s1 s2) (range_idx L from to).
  Proof. apply f2_body. Qed.
  Lemma f2_read_into_spec from to : f2_read_into f c1 c2 s1 s2 from to = ovals (F2 f s1 s2) (range_idx L from to).
  Proof. unfold f2_read_into. cbv zeta. now rewrite f2_for_each_spec, range_idx_clamp. Qed.
  Lemma f2_try_fold_spec from to : f2_try_fold f c1 c2 s1 s2 from to = ovals (F2 f s1 s2) (range_idx L from to).
  Proof.
    unfold f2_try_fold. cbv zeta. destruct (N.leb_spec (N.min to (f2_len c1 c2 s1 s2)) from) as [H|_].
    - now rewrite range_idx_empty.
    - apply f2_body.
  Qed.
  Lemma f2_one_spec i : f2_one f c1 c2 s1 s2 i = if i <? L then F2 f s1 s2 i else None.
  Proof.
    unfold f2_one, src_one, F2, L. rewrite !getb_get, N.ltb_antisym.
    destruct (f2_len c1 c2 s1 s2 <=? i); [reflexivity|]. now destruct (get s1 i).
  Qed.
  Lemma F2_defined i : c1 = true -> c2 = true -> i < L -> exists v, F2 f s1 s2 i = Some v.
  Proof.
    unfold L, f2_len. intros -> -> H. rewrite F2_F1. apply F1_defined. unfold f1_len. now rewrite len_combine.
  Qed.
  (* one governing source suffices, hence the bounds: a source that does not govern counts as usize_max.
     Section P3 has no counterpart; from3_cursor_spec, where all three govern, argues through F3_F1 and
     needs no bound *)
  Lemma F2_out_of_range i :
    len s1 <= usize_max -> len s2 <= usize_max ->          (* vector lengths are usize values *)
    (c1 = true \/ c2 = true) -> L <= i -> F2 f s1 s2 i = None.
  Proof.
    unfold L, f2_len. intros Hl1 Hl2 Hc H. rewrite F2_F1. apply F1_out_of_range. unfold f1_len. rewrite len_combine.
    destruct c1, c2; try (destruct Hc; discriminate); lia.
  Qed.

  Lemma f2_sorted_spec idx : StronglySorted N.le idx -> f2_sorted f s1 s2 idx = ovals (F2 f s1 s2) idx.
  Proof.
    intros Hs. unfold f2_sorted. cbv zeta. rewrite !src_sorted_ovals, zip_ovals by exact Hs.
    rewrite <- src_sorted_ovals. change (f1_sorted g (combine s1 s2) idx = ovals (F2 f s1 s2) idx).
    rewrite f1_sorted_spec by exact Hs. apply ovals_ext. intros i _. symmetry. apply F2_F1.
  Qed.
End P2.

Section P3.
  Context {A1 A2 A3 B : Type} (f : N -> A1 -> A2 -> A3 -> B) (c1 c2 c3 : bool)
          (s1 : list A1) (s2 : list A2) (s3 : list A3).

  Let g (i : N) (p : A1 * A2 * A3) : B := f i (fst (fst p)) (snd (fst p)) (snd p).

  Lemma F3_F1 i : F3 f s1 s2 s3 i = F1 g (combine (combine s1 s2) s3) i.
  Proof. unfold F3, F1. rewrite !get_combine. now destruct (get s1 i), (get s2 i), (get s3 i). Qed.

  Lemma f3_body from to :
    mapi_from from g (combine (combine (src_range s1 from to) (src_range s2 from to)) (src_range s3 from to))
    = ovals (F3 f s1 s2 s3) (seqN from (N.to_nat (to - from))).
  Proof.
    rewrite !src_range_ovals, !zip_ovals, mapi_ovals by apply seqN_sorted.
    apply ovals_ext. intros i _. symmetry. apply F3_F1.
  Qed.

  Let L := f3_len c1 c2 c3 s1 s2 s3.

  Lemma f3_for_each_spec from to :
    f3_for_each f c1 c2 c3 s1 s2 s3 from to = ovals (F3 f s1 s2 s3) (range_idx L from to).
  Proof. apply f3_body. Qed.
  Lemma f3_read_into_spec from to :
    f3_read_into f c1 c2 c3 s1 s2 s3 from to = ovals (F3 f s1 s2 s3) (range_idx L from to).
  Proof. unfold f3_read_into. cbv zeta. now rewrite f3_for_each_spec, range_idx_clamp. Qed.
  Lemma f3_try_fold_spec from to :
    f3_try_fold f c1 c2 c3 s1 s2 s3 from to = ovals (F3 f s1 s2 s3) (range_idx L from to).
  Proof.
    unfold f3_try_fold. cbv zeta. destruct (N.leb_spec (N.min to (f3_len c1 c2 c3 s1 s2 s3)) from) as [H|_].
    - now rewrite range_idx_empty.
    - apply f3_body.
  Qed.
  Lemma f3_one_spec i : f3_one f c1 c2 c3 s1 s2 s3 i = if i <? L then F3 f s1 s2 s3 i else None.
  Proof.
    unfold f3_one, src_one, F3, L. rewrite !getb_get, N.ltb_antisym.
    destruct (f3_len c1 c2 c3 s1 s2 s3 <=? i); [reflexivity|]. now destruct (get s1 i), (get s2 i).
  Qed.
  Lemma F3_defined i : c1 = true -> c2 = true -> c3 = true -> i < L -> exists v, F3 f s1 s2 s3 i = Some v.
  Proof.
    unfold L, f3_len. intros -> -> -> H. rewrite F3_F1. apply F1_defined. unfold f1_len. now rewrite !len_combine.
  Qed.

  Lemma f3_sorted_spec idx :
    StronglySorted N.le idx -> f3_sorted f s1 s2 s3 idx = ovals (F3 f s1 s2 s3) idx.
  Proof.
    intros Hs. unfold f3_sorted. cbv zeta. rewrite !src_sorted_ovals, !zip_ovals by exact Hs.
    rewrite <- src_sorted_ovals. change (f1_sorted g (combine (combine s1 s2) s3) idx = ovals (F3 f s1 s2 s3) idx).
    rewrite f1_sorted_spec by exact Hs. apply ovals_ext. intros i _. symmetry. apply F3_F1.
  Qed.
End P3.

(* cursor().get, all sources governing the length: the formula is defined exactly below len() *)
Lemma from1_cursor_spec {A B} (f : N -> A -> B) s idx :
  cursor_gets (f1_len s) (fun a b => Ok (f1_read_into f s a b)) cursor_new idx = Ok (map (F1 f s) idx).
Proof.
  apply (cursor_gets_spec (f1_len s) (F1 f s)); [apply F1_defined|apply F1_out_of_range| |apply cinv_new].
  intros a b. now rewrite f1_read_into_spec.
Qed.
Lemma from2_cursor_spec {A1 A2 B} (f : N -> A1 -> A2 -> B) s1 s2 idx :
  len s1 <= usize_max -> len s2 <= usize_max ->
  cursor_gets (f2_len true true s1 s2) (fun a b => Ok (f2_read_into f true true s1 s2 a b)) cursor_new idx
  = Ok (map (F2 f s1 s2) idx).
Proof.
  intros H1 H2. apply (cursor_gets_spec (f2_len true true s1 s2) (F2 f s1 s2)); [| | |apply cinv_new].
  - intros i Hi. now apply (F2_defined f true true).
  - intros i Hi. apply (F2_out_of_range f true true); auto.
  - intros a b. now rewrite f2_read_into_spec.
Qed.
Lemma from3_cursor_spec {A1 A2 A3 B} (f : N -> A1 -> A2 -> A3 -> B) s1 s2 s3 idx :
  cursor_gets (f3_len true true true s1 s2 s3) (fun a b => Ok (f3_read_into f true true true s1 s2 s3 a b)) cursor_new idx
  = Ok (map (F3 f s1 s2 s3) idx).
Proof.
  apply (cursor_gets_spec (f3_len true true true s1 s2 s3) (F3 f s1 s2 s3)); [| | |apply cinv_new].
  - intros i Hi. now apply (F3_defined f true true true).
  - intros i Hi. rewrite F3_F1. apply F1_out_of_range. unfold f1_len. now rewrite !len_combine.
  - intros a b. now rewrite f3_read_into_spec.
Qed.

(* an instance with unequal lengths and a non-governing source *)
Example from2_example :
  f2_read_into (fun i a b => (Z.of_N i + a * b)%Z) true false [1;2;3]%Z [10;20]%Z 0 9 = [10; 41]%Z.
Proof. vm_compute. reflexivity. Qed.
