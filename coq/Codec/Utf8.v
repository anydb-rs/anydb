(* Well-formed UTF-8 byte sequences (Unicode Table 3-7), the rule String::from_utf8 implements: no
   overlong forms, no surrogates, nothing above U+10FFFF (`utf8_valid`, the automaton `ustep` run
   from U0); `has_control` is char::is_control over such a sequence. *)
From Anydb Require Import Common.Base.

Inductive ust := U0 | UC1 | UC2 | UE0 | UED | UC3 | UF0 | UF4.

Definition inr (lo hi b : N) : bool := (lo <=? b) && (b <=? hi).

Definition ustep (s : ust) (b : N) : option ust :=
  match s with
  | U0 =>
      if b <=? 127 then Some U0
      else if inr 194 223 b then Some UC1
      else if b =? 224 then Some UE0
      else if inr 225 236 b then Some UC2
      else if b =? 237 then Some UED
      else if inr 238 239 b then Some UC2
      else if b =? 240 then Some UF0
      else if inr 241 243 b then Some UC3
      else if b =? 244 then Some UF4
      else None
  | UC1 => if inr 128 191 b then Some U0 else None
  | UC2 => if inr 128 191 b then Some UC1 else None
  | UE0 => if inr 160 191 b then Some UC1 else None
  | UED => if inr 128 159 b then Some UC1 else None
  | UC3 => if inr 128 191 b then Some UC2 else None
  | UF0 => if inr 144 191 b then Some UC2 else None
  | UF4 => if inr 128 143 b then Some UC2 else None
  end.

Fixpoint urun (s : ust) (l : list N) : bool :=
  match l with
  | [] => match s with U0 => true | _ => false end
  | b :: t => match ustep s b with Some s' => urun s' t | None => false end
  end.

Definition utf8_valid (l : list N) : bool := urun U0 l.

Lemma urun_app s a b : urun s a = true -> urun s (a ++ b) = urun U0 b.
Proof.
  revert s; induction a as [|x a IH]; intros s H; cbn in *.
  - destruct s; try discriminate; reflexivity.
  - destruct (ustep s x); try discriminate. now apply IH.
Qed.

Lemma utf8_valid_app a b : utf8_valid a = true -> utf8_valid b = true -> utf8_valid (a ++ b) = true.
Proof. unfold utf8_valid; intros Ha Hb. now rewrite urun_app. Qed.

Definition ascii (l : list N) : bool := forallb (fun b => b <=? 127) l.

Lemma ascii_utf8 l : ascii l = true -> utf8_valid l = true.
Proof.
  unfold utf8_valid. induction l as [|b t IH]; cbn; auto.
  intros H. apply andb_true_iff in H as [Hb Ht]. rewrite Hb. auto.
Qed.

(* char::is_control on a valid string: C0 (00-1F), DEL (7F) and C1 (U+0080..U+009F = C2 80..C2 9F). *)
Fixpoint has_control (l : list N) : bool :=
  match l with
  | [] => false
  | b :: t =>
      if (b <=? 31) || (b =? 127) then true
      else if b =? 194 then
        match t with
        | c :: t' => if inr 128 159 c then true else has_control t'
        | [] => false
        end
      else has_control t
  end.
