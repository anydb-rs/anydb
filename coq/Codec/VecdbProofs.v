(* Round trip and totality of the vecdb record codecs num, arr, format, header, page.  `*_total`:
   decoding never panics, and what it returns is valid — for num, header and page provided the
   input is bytes (`bytes_ok`). *)
From Anydb Require Import Common.Base Common.ListFacts Common.LE Gen.Consts Gen.Sizes Codec.Vecdb.

Theorem num_roundtrip w v : v < 256 ^ N.of_nat w -> num_from_bytes w (num_to_bytes w v) = Ok v.
Proof.
  intros H. unfold num_from_bytes, num_to_bytes. rewrite len_le_enc, N.eqb_refl.
  now rewrite le_dec_enc.
Qed.

Lemma num_roundtrip_u32 v : v <? two32 = true -> num_from_bytes 4 (enc_u32 v) = Ok v.
Proof. intros H. apply num_roundtrip. rewrite pow256_4. now apply N.ltb_lt. Qed.
Lemma num_roundtrip_u64 v : v <? two64 = true -> num_from_bytes 8 (enc_u64 v) = Ok v.
Proof. intros H. apply num_roundtrip. rewrite pow256_8. now apply N.ltb_lt. Qed.

Theorem num_total w bs :
  match num_from_bytes w bs with
  | Ok v => v < 256 ^ N.of_nat w \/ bytes_ok bs = false
  | Err e => e = WrongLength /\ len bs <> N.of_nat w
  | Panic => False
  end.
Proof.
  unfold num_from_bytes. destruct (len bs =? N.of_nat w) eqn:E.
  - destruct (bytes_ok bs) eqn:B; [left|now right].
    apply N.eqb_eq in E. rewrite <- E. now apply le_dec_bound.
  - split; auto. lia.
Qed.

Theorem num_decode_encode w bs v :
  bytes_ok bs = true -> num_from_bytes w bs = Ok v -> num_to_bytes w v = bs.
Proof.
  unfold num_from_bytes, num_to_bytes. intros B. destruct (len bs =? N.of_nat w) eqn:E; [|discriminate].
  intros [= <-]. apply N.eqb_eq in E. unfold len in E.
  replace w with (length bs) by lia. now apply le_enc_dec.
Qed.

Theorem arr_roundtrip n a : len a = N.of_nat n -> arr_from_bytes n (arr_to_bytes a) = Ok a.
Proof. intros H. unfold arr_from_bytes, arr_to_bytes. now rewrite H, N.eqb_refl. Qed.

Theorem arr_total n bs :
  match arr_from_bytes n bs with
  | Ok a => a = bs /\ len a = N.of_nat n
  | Err e => e = WrongLength
  | Panic => False
  end.
Proof. unfold arr_from_bytes. destruct (len bs =? N.of_nat n) eqn:E; auto. split; auto. lia. Qed.

Theorem format_roundtrip c : format_code_ok c = true -> format_from_bytes (format_to_bytes c) = Ok c.
Proof. intros H. cbn. now rewrite H. Qed.

Theorem format_total bs :
  match format_from_bytes bs with
  | Ok c => format_code_ok c = true
  | Err _ => True
  | Panic => False
  end.
Proof.
  unfold format_from_bytes. destruct bs as [|b [|? ?]]; auto.
  destruct (format_code_ok b) eqn:E; auto.
Qed.

(* with format_roundtrip and format_total: `as u8` and Format::from_bytes are inverse bijections *)
Lemma format_codes_distinct :
  NoDup [FORMAT_BYTES; FORMAT_ZEROCOPY; FORMAT_PCO; FORMAT_LZ4; FORMAT_ZSTD].
Proof.
  repeat constructor; cbn; intros H;
    repeat (destruct H as [H|H]; [discriminate H|]); exact H.
Qed.

Lemma hdr_layout :
  HDR_OFF_HEADER_VERSION = 0 /\ HDR_END_HEADER_VERSION = 4 /\ HDR_OFF_VEC_VERSION = 4 /\
  HDR_END_VEC_VERSION = 8 /\ HDR_OFF_COMPUTED_VERSION = 8 /\ HDR_END_COMPUTED_VERSION = 12 /\
  HDR_OFF_STAMP = 12 /\ HDR_END_STAMP = 20 /\ HDR_OFF_FORMAT = 20 /\ HDR_END_FORMAT = 21 /\
  21 <= HEADER_OFFSET.
Proof. repeat split; try reflexivity. now vm_compute. Qed.

Lemma num_field w f t bs :
  t - f = N.of_nat w -> t <= len bs ->
  exists v, num_from_bytes w (slice f t bs) = Ok v /\ (bytes_ok bs = true -> v < 256 ^ N.of_nat w).
Proof.
  intros W H. unfold num_from_bytes.
  assert (E : len (slice f t bs) = N.of_nat w) by (rewrite len_slice; lia).
  rewrite E, N.eqb_refl. eexists. split; [reflexivity|].
  intros B. rewrite <- E. apply le_dec_bound, bytes_ok_slice, B.
Qed.

Section HeaderFields.
  Variables (hv vv cv st c : N) (pad : list N).
  Let bs := enc_u32 hv ++ enc_u32 vv ++ enc_u32 cv ++ enc_u64 st ++ format_to_bytes c ++ pad.

  Lemma hf0 : slice 0 4 bs = enc_u32 hv.
  Proof. apply slice_prefix. now autorewrite with len. Qed.
  Lemma hf1 : slice 4 8 bs = enc_u32 vv.
  Proof. apply slice_field; now autorewrite with len. Qed.
  Lemma hf2 : slice 8 12 bs = enc_u32 cv.
  Proof. subst bs. rewrite app_assoc. apply slice_field; now autorewrite with len. Qed.
  Lemma hf3 : slice 12 20 bs = enc_u64 st.
  Proof. subst bs. rewrite 2 app_assoc. apply slice_field; now autorewrite with len. Qed.
  Lemma hf4 : slice 20 21 bs = format_to_bytes c.
  Proof. subst bs. rewrite 3 app_assoc. apply slice_field; now autorewrite with len. Qed.
  Lemma hflen : len bs = 21 + len pad.
  Proof. subst bs. unfold format_to_bytes. autorewrite with len. lia. Qed.
End HeaderFields.

Theorem header_roundtrip h : valid_header h = true -> header_from_bytes (header_to_bytes h) = Ok h.
Proof.
  unfold valid_header. rewrite !andb_true_iff. intros ((((H1 & H2) & H3) & H4) & H5).
  unfold header_from_bytes, header_to_bytes.
  destruct hdr_layout as (-> & -> & -> & -> & -> & -> & -> & -> & -> & -> & HO).
  rewrite hflen, hf0, hf1, hf2, hf3, hf4, len_repeat.
  replace (21 + _) with HEADER_OFFSET by lia. rewrite N.ltb_irrefl.
  rewrite !num_roundtrip_u32, num_roundtrip_u64, format_roundtrip by assumption.
  destruct h; reflexivity.
Qed.

Theorem header_total bs :
  match header_from_bytes bs with
  | Ok h => bytes_ok bs = true -> valid_header h = true
  | Err _ => True
  | Panic => False
  end.
Proof.
  unfold header_from_bytes.
  destruct hdr_layout as (-> & -> & -> & -> & -> & -> & -> & -> & -> & -> & HO).
  destruct (N.ltb_spec (len bs) HEADER_OFFSET) as [|L]; [exact I|].
  destruct (num_field 4 0 4 bs) as (hv & -> & Bhv); [reflexivity|lia|].
  destruct (num_field 4 4 8 bs) as (vv & -> & Bvv); [reflexivity|lia|].
  destruct (num_field 4 8 12 bs) as (cv & -> & Bcv); [reflexivity|lia|].
  destruct (num_field 8 12 20 bs) as (st & -> & Bst); [reflexivity|lia|].
  cbn [bind].
  pose proof (format_total (slice 20 21 bs)) as F.
  destruct (format_from_bytes (slice 20 21 bs)) as [f|e|]; cbn [bind]; auto.
  intros B. unfold valid_header; cbn [h_hv h_vv h_cv h_stamp h_format].
  rewrite !andb_true_iff, !N.ltb_lt. repeat split; auto.
Qed.

Lemma page_layout :
  PAGE_OFF_START = 0 /\ PAGE_END_START = 8 /\ PAGE_OFF_BYTES = 8 /\ PAGE_END_BYTES = 12 /\
  PAGE_OFF_VALUES = 12 /\ PAGE_END_VALUES = 16 /\ SIZE_OF_PAGE = 16.
Proof. repeat split; reflexivity. Qed.

Section PageFields.
  Variables (s b v : N).
  Let bs := enc_u64 s ++ enc_u32 b ++ enc_u32 v.

  Lemma pf0 : slice 0 8 bs = enc_u64 s.
  Proof. apply slice_prefix. now autorewrite with len. Qed.
  Lemma pf1 : slice 8 12 bs = enc_u32 b.
  Proof. apply slice_field; now autorewrite with len. Qed.
  (* the last field has no tail: slice_field at q = [] *)
  Lemma pf2 : slice 12 16 bs = enc_u32 v.
  Proof.
    subst bs. rewrite app_assoc, <- (app_nil_r (enc_u32 v)) at 1.
    apply slice_field; now autorewrite with len.
  Qed.
  Lemma pflen : len bs = 16.
  Proof. subst bs. now autorewrite with len. Qed.
End PageFields.

Theorem page_roundtrip p : valid_page p = true -> page_from_bytes (page_to_bytes p) = Ok p.
Proof.
  unfold valid_page. rewrite !andb_true_iff. intros ((H1 & H2) & H3).
  unfold page_from_bytes, page_to_bytes.
  destruct page_layout as (-> & -> & -> & -> & -> & -> & ->).
  rewrite pflen, pf0, pf1, pf2, N.ltb_irrefl.
  rewrite num_roundtrip_u64, !num_roundtrip_u32 by assumption.
  destruct p; reflexivity.
Qed.

Theorem page_total bs :
  match page_from_bytes bs with
  | Ok p => bytes_ok bs = true -> valid_page p = true
  | Err e => e = WrongLength
  | Panic => False
  end.
Proof.
  unfold page_from_bytes.
  destruct page_layout as (-> & -> & -> & -> & -> & -> & ->).
  destruct (N.ltb_spec (len bs) 16) as [|L]; [reflexivity|].
  destruct (num_field 8 0 8 bs) as (s & -> & Bs); [reflexivity|lia|].
  destruct (num_field 4 8 12 bs) as (b & -> & Bb); [reflexivity|lia|].
  destruct (num_field 4 12 16 bs) as (v & -> & Bv); [reflexivity|lia|].
  cbn [bind]. intros B. unfold valid_page; cbn [p_start p_bytes p_values].
  rewrite !andb_true_iff, !N.ltb_lt. repeat split; auto.
Qed.

Lemma page_values_decompose p :
  p_values p < two32 ->
  p_values p = page_values_count p + (if page_is_raw p then RAW_FLAG else 0) /\ page_values_count p < RAW_FLAG.
Proof.
  unfold page_values_count, page_is_raw, two32. intros H.
  assert (RAW_FLAG = 2147483648) by reflexivity.
  destruct (RAW_FLAG <=? p_values p) eqn:E; lia.
Qed.

Example header_example : valid_header (mkHeader 2 4 0 77 65) = true. Proof. now vm_compute. Qed.
Example page_example : valid_page (mkPage 32 100 (RAW_FLAG + 5)) = true. Proof. now vm_compute. Qed.
