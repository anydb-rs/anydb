(* Round trip (`meta_roundtrip`), totality (`meta_total`), allocation bound (`meta_alloc_bounded`) and
   frame property (`fill_frame`, `fill_skips_invalid`) of the region-metadata codec.  The constants are
   used through the facts below (`meta_layout`, `id_fits`, …), which are re-checked against
   Gen/Consts.v (i.e. against the source) on every run. *)
From Anydb Require Import Common.Base Common.ListFacts Common.LE Codec.Utf8 Gen.Consts Codec.Meta.

(* The order of the checks in Meta.meta_from_bytes is that of RegionMetadata::from_bytes: the constant is
   true iff the source's order equals the list `expect` of tools/gen_consts.py, which is the model's.  A
   reordering in region_metadata.rs breaks this lemma; Meta.v and that list then change together. *)
Lemma check_order : META_CHECK_ORDER_AS_MODELLED = true. Proof. reflexivity. Qed.
Lemma page_pos : 0 < PAGE_SIZE. Proof. reflexivity. Qed.
Lemma meta_layout :
  META_OFF_START = 0 /\ META_END_START = 8 /\ META_OFF_LEN = 8 /\ META_END_LEN = 16 /\
  META_OFF_RESERVED = 16 /\ META_END_RESERVED = 24 /\ META_OFF_ID_LEN = 24 /\
  META_END_ID_LEN = 32 /\ META_OFF_ID = 32.
Proof. repeat split; reflexivity. Qed.
Lemma id_fits : 32 + MAX_REGION_ID_LEN <= SIZE_OF_REGION_METADATA.
Proof. now vm_compute. Qed.
Lemma size_fits64 : SIZE_OF_REGION_METADATA < two64. Proof. reflexivity. Qed.

Opaque PAGE_SIZE SIZE_OF_REGION_METADATA MAX_REGION_ID_LEN.

Section Fields.
  Variables (a b c d : N) (id pad : list N).
  Let bs := enc_u64 a ++ enc_u64 b ++ enc_u64 c ++ enc_u64 d ++ id ++ pad.

  Lemma f0 : slice 0 8 bs = enc_u64 a.
  Proof. apply slice_prefix. now autorewrite with len. Qed.
  Lemma f1 : slice 8 16 bs = enc_u64 b.
  Proof using a b c d id pad. apply slice_field; now autorewrite with len. Qed.
  Lemma f2 : slice 16 24 bs = enc_u64 c.
  Proof using a b c d id pad.
    subst bs. rewrite app_assoc. apply slice_field; now autorewrite with len.
  Qed.
  Lemma f3 : slice 24 32 bs = enc_u64 d.
  Proof. subst bs. rewrite 2 app_assoc. apply slice_field; now autorewrite with len. Qed.
  Lemma f4 : slice 32 (32 + len id) bs = id.
  Proof. subst bs. rewrite 3 app_assoc. apply slice_field; autorewrite with len; lia. Qed.
  Lemma flen : len bs = 32 + len id + len pad.
  Proof. subst bs. autorewrite with len. lia. Qed.
End Fields.

Theorem meta_roundtrip m : valid_new m = true -> meta_from_bytes (meta_to_bytes m) = Ok m.
Proof.
  unfold valid_new, fits64. rewrite !andb_true_iff, !N.leb_le, !N.ltb_lt.
  intros ((((((((((Hsal & Hrmin) & Hral) & Hlr) & Hidpos) & Hidmax) & Hu) & _) & _) & Hs64) & Hr64).
  pose proof id_fits as Hfit. pose proof page_pos as Hpp. pose proof size_fits64 as Hsz64.
  unfold meta_from_bytes, meta_to_bytes, field.
  destruct meta_layout as (-> & -> & -> & -> & -> & -> & -> & -> & ->).
  rewrite flen, f0, f1, f2, f3, len_repeat.
  (* the two alignment facts are kept away from lia, which would expand their mod *)
  rewrite !dec_enc_u64 by (clear Hsal Hral; lia).
  rewrite f4, Hsal, Hral, Hu. clear Hsal Hral. cbn [negb].
  replace (32 + len (m_id m) + _) with SIZE_OF_REGION_METADATA by lia.
  rewrite N.eqb_refl. cbn [negb].
  replace (m_reserved m =? 0) with false by lia.
  rewrite !andb_false_r, andb_false_l.
  rewrite (proj2 (N.ltb_ge _ _) Hidmax), (proj2 (N.ltb_ge _ _) Hrmin), (proj2 (N.ltb_ge _ _) Hlr).
  replace (SIZE_OF_REGION_METADATA <? 32 + len (m_id m)) with false by lia.
  destruct m; reflexivity.
Qed.

Theorem meta_total bs :
  match meta_from_bytes bs with
  | Ok m => valid_dec m = true
  | Err _ => True
  | Panic => False
  end.
Proof.
  unfold meta_from_bytes. destruct meta_layout as (-> & -> & -> & -> & -> & -> & -> & -> & ->).
  destruct (negb (len bs =? _)); [exact I|].
  destruct (_ && _); [exact I|].
  destruct (N.ltb_spec MAX_REGION_ID_LEN (field 24 32 bs)) as [|Hid]; [exact I|].
  destruct (_ <? _); [exact I|].
  destruct (utf8_valid _) eqn:Hu; [|exact I].
  destruct (field 0 8 bs mod PAGE_SIZE =? 0) eqn:Hs; [|exact I].
  destruct (N.ltb_spec (field 16 24 bs) PAGE_SIZE) as [|Hr]; [exact I|].
  destruct (field 16 24 bs mod PAGE_SIZE =? 0) eqn:Hrm; [|exact I].
  destruct (N.ltb_spec (field 16 24 bs) (field 8 16 bs)) as [|Hl]; [exact I|].
  cbn [negb]. unfold valid_dec; cbn [m_start m_len m_reserved m_id].
  rewrite Hs, Hrm, Hu, !andb_true_r, !andb_true_iff, !N.leb_le. repeat split; auto.
  (* the id is a slice of at most id_len bytes *)
  rewrite len_slice. clear -Hid. lia.
Qed.

Corollary meta_never_panics bs : is_panic (meta_from_bytes bs) = false.
Proof. pose proof (meta_total bs). destruct (meta_from_bytes bs); auto; contradiction. Qed.

Theorem meta_alloc_bounded bs : meta_alloc bs <= len bs.
Proof.
  unfold meta_alloc. pose proof id_fits.
  destruct (negb (len bs =? SIZE_OF_REGION_METADATA)) eqn:Hsz; [lia|].
  destruct (MAX_REGION_ID_LEN <? _) eqn:Hid; lia.
Qed.

(* Regions::fill on the flat regions file: slot i decodes from its own bytes only, whatever the other
   slots hold, and an invalid slot is skipped (`fill_skips_invalid`) *)
Theorem fill_frame bs bs' i :
  len bs = len bs' -> slot_of bs i = slot_of bs' i -> fill_get bs i = fill_get bs' i.
Proof.
  intros Hl Hs. unfold fill_get, fill_file. rewrite <- Hl.
  destruct (negb _); [reflexivity|].
  now rewrite !get_map_seqN, N.add_0_l, Hs.
Qed.

Theorem fill_skips_invalid bs i :
  i < len bs / SIZE_OF_REGION_METADATA -> len bs mod SIZE_OF_REGION_METADATA = 0 ->
  fill_get bs i = match meta_from_bytes (slot_of bs i) with Ok m => Some m | _ => None end.
Proof.
  intros Hi Hm. unfold fill_get, fill_file. rewrite Hm, N.eqb_refl. cbn [negb].
  now rewrite get_map_seqN, N2Nat.id, N.add_0_l, (proj2 (N.ltb_lt _ _) Hi).
Qed.

Example valid_example :
  valid_new (mkMeta 8192 5 4096 [97; 98; 99]) = true.
Proof. now vm_compute. Qed.
