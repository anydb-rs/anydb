(* The driver theorem `C06_driver_on` (sources in a domain D; `C06_driver_all` is D = True, Props:
   C06_driver), with conclusion `C06_conclusion`.
   Invariant `hinv` (DESIGN.md B.4): the output is `good`, a prefix of the from-scratch outputs of the
   sources of the last call (`cok`: the carried state is that run's state);
   truncate_if_needed(max_from) with agreeing sources below max_from keeps it a prefix for the new
   sources (causality); every batch extends the prefix (resume_ok); when the call returns Ok the
   loop exit condition forces length = target.  Of a call that returns Err nothing is said. *)
From Anydb Require Import Common.Base Eager.EDriver.
From Anydb Require Export Eager.EVecProofs.

Definition C06_conclusion {Src St Out} (m : method Src St Out) (s : hstate (Src:=Src) (Out:=Out)) : Prop :=
  match snd s with
  | Some (src, Ok _) => scratch m src = Ok (contents (fst s)) /\ length (contents (fst s)) = target m src
  | _ => True
  end.

Section Steps.
Context {Src St Out : Type}.
Variable m : method Src St Out.

Notation steps := (steps m).
Notation scratch_run := (scratch_run m).

Lemma steps_S src st i n :
  steps src st i (S n) =
  match step m src st i with
  | Ok (st', o) => let '(os, r) := steps src st' (S i) n in (o :: os, r)
  | Err e => ([], Err e)
  | Panic => ([], Panic)
  end.
Proof. reflexivity. Qed.
Lemma steps_O src st i : steps src st i 0 = ([], Ok st).
Proof. reflexivity. Qed.

Lemma steps_split src st i a b :
  steps src st i (a + b) =
  let '(o1, r1) := steps src st i a in
  match r1 with
  | Ok st1 => let '(o2, r2) := steps src st1 (i + a) b in (o1 ++ o2, r2)
  | Err e => (o1, Err e)
  | Panic => (o1, Panic)
  end.
Proof.
  revert st i. induction a as [|a IH]; intros st i.
  - cbn [Nat.add]. rewrite steps_O. replace (i + 0)%nat with i by lia.
    destruct (steps src st i b) as [o2 r2]. reflexivity.
  - cbn [Nat.add]. rewrite !steps_S. destruct (step m src st i) as [[st' o]| |]; try reflexivity.
    rewrite IH. destruct (steps src st' (S i) a) as [o1 r1].
    replace (i + S a)%nat with (S i + a)%nat by lia.
    destruct r1 as [st1| |]; try reflexivity.
    destruct (steps src st1 (S i + a) b) as [o2 r2]. reflexivity.
Qed.

(* when a step fails, outs are the outputs of the steps before it and J holds of them *)
Lemma steps_inv (J : nat -> St -> list Out -> Prop) src i n :
  (forall j st os st' o, (i <= j < i + n)%nat -> J j st os -> step m src st j = Ok (st', o) ->
     J (S j) st' (os ++ [o])) ->
  forall st os outs r, J i st os -> steps src st i n = (outs, r) ->
  (length outs <= n)%nat /\
  exists st', J (i + length outs)%nat st' (os ++ outs) /\
    forall st'', r = Ok st'' -> st'' = st' /\ length outs = n.
Proof.
  revert i. induction n as [|n IH]; intros i HJ st os outs r H0 H.
  - rewrite steps_O in H. injection H as <- <-. split; [reflexivity|]. exists st.
    rewrite Nat.add_0_r, app_nil_r. split; [exact H0|]. now intros st'' [= <-].
  - rewrite steps_S in H. destruct (step m src st i) as [[st1 o]| |] eqn:Es.
    2,3: injection H as <- <-; split; [cbn; lia|]; exists st; rewrite Nat.add_0_r, app_nil_r;
         split; [exact H0|discriminate].
    destruct (steps src st1 (S i) n) as [os1 r1] eqn:E1. injection H as <- <-.
    destruct (IH (S i)) with (st := st1) (os := os ++ [o]) (3 := E1) as (Hl & st' & HJ' & Hok).
    + intros j s os' s' o' Hj. apply HJ. lia.
    + eapply HJ; eauto. lia.
    + cbn [length]. split; [lia|]. exists st'. rewrite <- app_assoc in HJ'.
      replace (i + S (length os1))%nat with (S i + length os1)%nat by lia. split; [exact HJ'|].
      intros st'' E. destruct (Hok _ E). split; [assumption|lia].
Qed.

Lemma steps_ok_length src st i n outs st' : steps src st i n = (outs, Ok st') -> length outs = n.
Proof.
  intros H. destruct (steps_inv (fun _ _ _ => True) src i n (fun _ _ _ _ _ _ _ _ => I) st [] _ _ I H) as (_ & s & _ & Hok).
  now destruct (Hok _ eq_refl).
Qed.

Lemma steps_firstn src st i n outs st' k :
  steps src st i n = (outs, Ok st') -> (k <= n)%nat ->
  exists st'', steps src st i k = (firstn k outs, Ok st'').
Proof.
  intros H Hk. replace n with (k + (n - k))%nat in H by lia. rewrite steps_split in H.
  destruct (steps src st i k) as [o1 [st1| |]] eqn:E1; try (inversion H; fail).
  apply steps_ok_length in E1. destruct (steps src st1 (i + k) (n - k)) as [o2 r2]. inversion H; subst.
  exists st1. now rewrite firstn_app_le, firstn_all by lia.
Qed.

Lemma steps_Forall (P : Out -> Prop) src :
  (forall st i st' o, step m src st i = Ok (st', o) -> P o) ->
  forall n st i outs r, steps src st i n = (outs, r) -> Forall P outs.
Proof.
  intros HP n st i outs r H.
  destruct (steps_inv (fun _ _ os => Forall P os) src i n) with (st := st) (os := @nil Out) (outs := outs) (r := r)
    as (_ & s & HF & _); [|constructor|exact H|exact HF].
  intros j s os s' o _ Hos Hs. apply Forall_app. split; [exact Hos|]. constructor; [|constructor]. eauto.
Qed.

Lemma scratch_run_iff src n st outs :
  scratch_run src n = Ok (st, outs) <->
  exists st0, recover m src [] 0 None = Ok st0 /\ steps src st0 0 n = (outs, Ok st).
Proof.
  unfold EDriver.scratch_run, bind. split.
  - destruct (recover m src [] 0 None) as [st0| |]; try discriminate.
    destruct (steps src st0 0 n) as [o r] eqn:E. destruct r; try discriminate.
    intros H. inversion H; subst. eauto.
  - intros (st0 & -> & ->). reflexivity.
Qed.

Lemma scratch_run_firstn src n st outs k :
  scratch_run src n = Ok (st, outs) -> (k <= n)%nat -> exists st', scratch_run src k = Ok (st', firstn k outs).
Proof.
  intros H Hk. apply scratch_run_iff in H. destruct H as (st0 & Hr & H).
  destruct (steps_firstn _ _ _ _ _ _ _ H Hk) as [st' H']. exists st'. apply scratch_run_iff. eauto.
Qed.

Lemma scratch_run_S src j st os st' o :
  scratch_run src j = Ok (st, os) -> step m src st j = Ok (st', o) -> scratch_run src (S j) = Ok (st', os ++ [o]).
Proof.
  intros H Es. apply scratch_run_iff in H. destruct H as (st0 & Hr & Hs). apply scratch_run_iff.
  exists st0. split; [exact Hr|]. replace (S j) with (j + 1)%nat by lia.
  rewrite steps_split, Hs. cbn [Nat.add]. now rewrite steps_S, Es.
Qed.

Lemma scratch_run_state (J : nat -> St -> list Out -> Prop) src k st outs :
  scratch_run src k = Ok (st, outs) ->
  (forall st0, recover m src [] 0 None = Ok st0 -> J 0%nat st0 []) ->
  (forall j s os s' o, (j < k)%nat -> J j s os -> step m src s j = Ok (s', o) -> J (S j) s' (os ++ [o])) ->
  J k st outs /\ length outs = k.
Proof.
  intros H H0 HJ. apply scratch_run_iff in H. destruct H as (st0 & Hr & Hs).
  destruct (steps_inv J src 0 k) with (2 := H0 _ Hr) (3 := Hs) as (_ & st' & HJ' & Hok).
  { intros j s os s' o Hj. apply HJ. lia. }
  destruct (Hok _ eq_refl) as [<- Hl]. rewrite Hl in HJ'. auto.
Qed.

Lemma batch_shape src cap c v v' c' r :
  batch m src cap c v = (v', c', r) ->
  let e := Nat.min (vlen v + cap) (target m src) in
  exists outs, v' = hand_push v outs /\
    ((outs = [] /\ ((e <= vlen v)%nat /\ c' = c /\ r = Ok tt \/ c' = None /\ r <> Ok tt)) \/
     exists st rs, (vlen v < e)%nat /\ recover m src (contents v) (vlen v) c = Ok st /\
       steps src st (vlen v) (e - vlen v) = (outs, rs) /\
       (c', r) = match rs with
                 | Ok st' => (Some st', Ok tt) | Err er => (None, Err er) | Panic => (None, Panic)
                 end).
Proof.
  intros H e. unfold batch in H. cbv zeta in H. fold e in H.
  destruct (Nat.leb_spec e (vlen v)) as [He|He].
  { injection H as <- <- <-. exists []. rewrite hand_push_nil. split; [reflexivity|]. left. auto. }
  destruct (recover m src (contents v) (vlen v) c) as [st| |].
  2,3: injection H as <- <- <-; exists []; rewrite hand_push_nil; split; [reflexivity|]; left;
       split; [reflexivity|]; right; split; [reflexivity|discriminate].
  destruct (steps src st (vlen v) (e - vlen v)) as [outs rs] eqn:Es.
  rewrite push_all_eq in H. exists outs. split; [destruct rs; now injection H|].
  right. exists st, rs. repeat split; auto. destruct rs; now injection H as _ <- <-.
Qed.

(* Q: what holds after a successful batch that stayed below the batch limit, the loop's exit.  Users
   give the last two premises (J at the start, the run of the loop) by position, `with (4 := …)
   (5 := …)`, and prove the first three in this order. *)
Lemma loop_inv src cap (J : option St -> vec Out -> Prop) (Q : vec Out -> Prop) :
  (forall c v v' c' r, J c v -> batch m src cap c v = (v', c', r) ->
     J c' v' /\ (r = Ok tt -> (length (pushed v') < cap)%nat -> Q v')) ->
  (forall c v, J c v -> J c (write v)) -> (forall v, Q v -> Q (write v)) ->
  forall fuel c v v' r, J c v -> repeat_loop m src cap fuel c v = (v', r) ->
  (exists c', J c' v') /\ (r = Ok tt -> Q v').
Proof.
  intros Jb Jw Qw. induction fuel as [|f IH]; intros c v v' r HJ H; cbn [repeat_loop] in H.
  - injection H as <- <-. split; [eauto|discriminate].
  - destruct (batch m src cap c v) as [[v1 c1] r1] eqn:Eb. destruct (Jb _ _ _ _ _ HJ Eb) as [HJ1 HQ].
    destruct r1 as [[]| |]; [|injection H as <- <-; split; [eauto|discriminate]..].
    set (v2 := if is_dirty v1 then write v1 else v1) in *.
    assert (HJ2 : J c1 v2) by (unfold v2; destruct (is_dirty v1); auto).
    destruct (Nat.leb_spec cap (length (pushed v1))) as [|Hl]; [exact (IH _ _ _ _ HJ2 H)|].
    injection H as <- <-. split; [eauto|]. intros _. unfold v2. destruct (is_dirty v1); auto.
Qed.

Lemma loop_dinv src cap fuel c v : dinv v -> dinv (fst (repeat_loop m src cap fuel c v)).
Proof.
  intros Hd. destruct (repeat_loop m src cap fuel c v) as [v' r] eqn:E.
  destruct (loop_inv src cap (fun _ => dinv) (fun _ => True)) with (4 := Hd) (5 := E) as [[_ H] _];
    auto using write_dinv.
  intros c0 v0 v1 c1 r1 H0 Eb. destruct (batch_shape _ _ _ _ _ _ _ Eb) as (outs & -> & _).
  split; [now apply hand_push_dinv|auto].
Qed.

End Steps.

Section Proofs.
Context {Src St Out : Type}.
Variable m : method Src St Out.
Variable agree : nat -> Src -> Src -> Prop.

Notation steps := (steps m).
Notation scratch_run := (scratch_run m).

(* A section lemma takes every variable its proof term mentions, and `lia` mentions all that are left in
   the context: the proofs below that do not speak of `agree` clear it first and say what they use. *)
Lemma scratch_run_length src n st outs : scratch_run src n = Ok (st, outs) -> length outs = n.
Proof using m agree. (* takes `agree` as an argument, unused *)
  intros H. now destruct (scratch_run_state m (fun _ _ _ => True) _ _ _ _ H).
Qed.

Definition good (src : Src) (l : list Out) : Prop :=
  (length l <= target m src)%nat /\ (l = [] \/ exists st, scratch_run src (length l) = Ok (st, l)).

Definition cok (src : Src) (l : list Out) (c : option St) : Prop :=
  match c with None => True | Some st => scratch_run src (length l) = Ok (st, l) end.

Lemma good_nil src : good src [].
Proof using m. clear agree. split; cbn; [lia|auto]. Qed.

Lemma good_unique src l1 l2 : good src l1 -> good src l2 -> length l1 = length l2 -> l1 = l2.
Proof using m.
  intros [_ [->|[s1 H1]]] [_ [->|[s2 H2]]] Hl; auto.
  - destruct l2; [auto|discriminate].
  - destruct l1; [auto|discriminate].
  - rewrite Hl in H1. rewrite H1 in H2. now inversion H2.
Qed.

Lemma good_scratch src l : good src l -> length l = target m src -> scratch m src = Ok l.
Proof.
  intros [_ Hg] Hl. unfold scratch. rewrite <- Hl. destruct l as [|x l']; [reflexivity|].
  destruct Hg as [Hg|[st H]]; [discriminate|]. now rewrite H.
Qed.

Variable Dom : Src -> Prop.
Hypothesis ROK : resume_ok_on m Dom.

Lemma recover_scratch src c l st :
  Dom src -> good src l -> cok src l c -> (length l < target m src)%nat ->
  recover m src l (length l) c = Ok st -> scratch_run src (length l) = Ok (st, l).
Proof using ROK. clear agree.
  intros HD [_ Hg] Hc Hlt Hr. destruct c as [sc|].
  - cbn in Hc. destruct (ROK _ _ _ _ HD Hc Hlt) as [_ H2]. rewrite H2 in Hr. now injection Hr as <-.
  - destruct l as [|x l'].
    + apply scratch_run_iff. exists st. split; [exact Hr|reflexivity].
    + destruct Hg as [Hg|[st1 H1]]; [discriminate|]. destruct (ROK _ _ _ _ HD H1 Hlt) as [H2 _].
      rewrite H2 in Hr by (cbn; lia). now injection Hr as <-.
Qed.

Lemma batch_good src cap c v v' c' r :
  Dom src -> (1 <= cap)%nat -> good src (contents v) -> cok src (contents v) c ->
  batch m src cap c v = (v', c', r) ->
  good src (contents v') /\ cok src (contents v') c' /\
  (r = Ok tt -> (length (pushed v') < cap)%nat -> vlen v' = target m src).
Proof using ROK. clear agree.
  intros HD Hcap Hg Hc H. pose proof Hg as [Hle _]. rewrite contents_length in Hle.
  destruct (batch_shape m _ _ _ _ _ _ _ H) as
    (outs & -> & [(-> & [(He & -> & _)|(-> & Hr)])|(st & rs & Hlt & Hr & Hs & Hcr)]).
  - rewrite hand_push_nil. split; [exact Hg|]. split; [exact Hc|]. intros _ _. lia.
  - rewrite hand_push_nil. split; [exact Hg|]. split; [exact I|]. intros E. now destruct Hr.
  - rewrite <- contents_length in Hr. apply recover_scratch in Hr; [|auto; rewrite ?contents_length; lia..].
    (* the from-scratch run continues over the pushed outputs *)
    rewrite contents_length in Hr.
    destruct (steps_inv m (fun j s os => scratch_run src j = Ok (s, os)) src _ _
                (fun j s os s' o _ => scratch_run_S m src j s os s' o) _ _ _ _ Hr Hs) as (Hlen & stp & Hnew & Hok).
    rewrite <- vlen_hand_push, <- contents_hand_push, <- contents_length in Hnew. split; [|split].
    + split; [rewrite contents_length, vlen_hand_push; lia|eauto].
    + destruct rs as [st'| |]; injection Hcr as -> ->; try exact I. now destruct (Hok _ eq_refl) as [-> _].
    + intros -> Hl. destruct rs as [st'| |]; try discriminate. destruct (Hok _ eq_refl) as [_ Hn].
      cbn [hand_push pushed] in Hl. rewrite app_length in Hl. rewrite vlen_hand_push. lia.
Qed.

Hypothesis CAUS : causal_on m agree Dom.

Lemma good_truncate p src mf l : Dom p -> Dom src -> good p l -> agree mf p src -> good src (firstn mf l).
Proof.
  intros Dp Ds [Hle Hg] Ha. destruct (CAUS _ _ _ Dp Ds Ha) as [Hmin Hrun].
  set (k := length (firstn mf l)). assert (Hk : k = Nat.min mf (length l)) by apply firstn_length.
  split; [fold k; lia|].
  destruct (Nat.eq_dec k 0) as [Hz|Hnz].
  - left. now apply length_zero_iff_nil.
  - right. destruct Hg as [->|[st H]]; [cbn in Hk; rewrite Nat.min_0_r in Hk; lia|].
    destruct (scratch_run_firstn m _ _ _ _ k H ltac:(lia)) as [st' H'].
    exists st'. fold k. rewrite <- Hrun by lia. rewrite H'. f_equal. f_equal.
    now rewrite Hk, <- firstn_firstn, firstn_all.
Qed.

Lemma compute_call_spec compressed src dep mf cap v v' r :
  Dom src -> (1 <= cap)%nat ->
  (contents v = [] \/ exists p, Dom p /\ good p (contents v) /\ agree mf p src) ->
  compute_call m compressed src dep mf cap v = (v', r) ->
  good src (contents v') /\ (r = Ok tt -> vlen v' = target m src).
Proof.
  intros HD Hcap Hprev H. unfold compute_call in H.
  set (v2 := truncate_if_needed (validate compressed v dep) mf) in *.
  assert (Hg2 : good src (contents v2)).
  { unfold v2. rewrite truncate_contents.
    destruct (N.eq_dec (vv v + dep) (cv v)) as [E|E];
      [rewrite validate_eq by exact E|rewrite validate_ne by exact E; rewrite firstn_nil; apply good_nil].
    destruct Hprev as [->|(p & Dp & Hg & Ha)]; [rewrite firstn_nil; apply good_nil|]. eapply good_truncate; eauto. }
  destruct (loop_inv m src cap (fun c x => good src (contents x) /\ cok src (contents x) c)
              (fun x => vlen x = target m src)) with (4 := conj Hg2 I) (5 := H) as [(c' & Hg' & _) HQ].
  - intros c0 v0 v1 c1 r1 [Hg0 Hc0] Eb. destruct (batch_good _ _ _ _ _ _ _ HD Hcap Hg0 Hc0 Eb) as (A & B & C). auto.
  - intros c0 v0. now rewrite write_contents.
  - intros v0. now rewrite <- !contents_length, write_contents.
  - auto.
Qed.

Lemma compute_call_dinv compressed src dep mf cap v :
  dinv v -> dinv (fst (compute_call m compressed src dep mf cap v)).
Proof. intros H. apply loop_dinv, truncate_dinv, validate_dinv, H. Qed.

Definition hinv (s : hstate (Src:=Src) (Out:=Out)) : Prop :=
  dinv (fst s) /\
  match snd s with
  | None => contents (fst s) = []
  | Some (p, r) => Dom p /\ good p (contents (fst s)) /\ (r = Ok tt -> length (contents (fst s)) = target m p)
  end.

Lemma hinv_init own : hinv (new_vec own, None).
Proof. split; [apply new_vec_dinv|reflexivity]. Qed.

Lemma hist_step compressed s o :
  hinv s -> op_ok agree s o -> in_dom Dom [o] -> hinv (apply_op m compressed s o).
Proof.
  intros [Hd Hs] Hv Hin. destruct s as [v last]. cbn [fst snd] in *.
  destruct o as [src dep mf cap| | |own]; cbn [apply_op fst snd].
  - destruct Hv as [Hcap Hag]. cbn [snd] in Hag. destruct Hin as [HD _].
    pose proof (compute_call_dinv compressed src dep mf cap v Hd) as Hd'.
    destruct (compute_call m compressed src dep mf cap v) as [v' r] eqn:E.
    assert (Hprev : contents v = [] \/ exists p, Dom p /\ good p (contents v) /\ agree mf p src).
    { destruct last as [[p r0]|]; [right; exists p; tauto|left; exact Hs]. }
    destruct (compute_call_spec _ _ _ _ _ _ _ _ HD Hcap Hprev E) as (A & B).
    split; [exact Hd'|]. cbn [fst snd]. rewrite contents_length. auto.
  - split; cbn [fst snd]; [now apply write_dinv|now rewrite write_contents].
  - split; cbn [fst snd]; [apply reimport_dinv|now rewrite reimport_write_contents].
  - destruct (own =? vv (write v)); [|apply hinv_init].
    split; cbn [fst snd]; [apply reimport_dinv|now rewrite reimport_write_contents].
Qed.

Lemma hist_inv compressed h : forall s,
  hinv s -> valid m agree compressed s h -> in_dom Dom h -> hinv (run_hist m compressed h s).
Proof.
  induction h as [|o t IH]; intros s Hi Hv Hin; [exact Hi|].
  cbn [run_hist fold_left]. destruct Hv as [Ho Hv]. apply IH; auto.
  - apply hist_step; auto. destruct o; cbn in *; tauto.
  - destruct o; cbn in Hin; tauto.
Qed.

(* Both storage formats.  A history: calls on arbitrary successive admissible sources with a valid
   max_from and any cap >= 1 per call, redundant calls, writes, flush + re-imports, own-version
   changes. *)
Theorem C06_driver_gen compressed h own :
  valid m agree compressed (new_vec own, None) h -> in_dom Dom h ->
  let s := run_hist m compressed h (new_vec own, None) in
  match snd s with
  | Some (src, Ok _) => scratch m src = Ok (contents (fst s)) /\ length (contents (fst s)) = target m src
  | _ => True
  end.
Proof.
  intros Hv Hin s. pose proof (hist_inv compressed h _ (hinv_init own) Hv Hin) as [_ Hs].
  fold s in Hs. destruct (snd s) as [[src [[]| |]]|]; auto.
  destruct Hs as (_ & Hg & Hl). specialize (Hl eq_refl).
  split; [apply good_scratch; auto|auto].
Qed.

Corollary C06_batch_split_gen compressed h1 h2 own src :
  valid m agree compressed (new_vec own, None) h1 -> in_dom Dom h1 ->
  valid m agree compressed (new_vec own, None) h2 -> in_dom Dom h2 ->
  let s1 := run_hist m compressed h1 (new_vec own, None) in
  let s2 := run_hist m compressed h2 (new_vec own, None) in
  snd s1 = Some (src, Ok tt) -> snd s2 = Some (src, Ok tt) -> contents (fst s1) = contents (fst s2).
Proof.
  intros V1 I1 V2 I2 s1 s2 E1 E2.
  pose proof (C06_driver_gen compressed h1 own V1 I1) as A. pose proof (C06_driver_gen compressed h2 own V2 I2) as B.
  cbv zeta in A, B. fold s1 in A. fold s2 in B. rewrite E1 in A. rewrite E2 in B.
  destruct A as [A _]. destruct B as [B _]. rewrite A in B. now inversion B.
Qed.

End Proofs.

Lemma in_dom_true {Src} (h : list (op Src)) : in_dom (fun _ => True) h.
Proof. induction h as [|o t IH]; [exact I|]. destruct o; cbn; auto. Qed.

(* C06_driver_gen as it reads once the section is closed, its conclusion folded into C06_conclusion: the
   form the families and Props quote. *)
Theorem C06_driver_on {Src St Out} (m : method Src St Out) (agree : nat -> Src -> Src -> Prop) (D : Src -> Prop) :
  resume_ok_on m D -> causal_on m agree D ->
  forall compressed h own, valid m agree compressed (new_vec own, None) h -> in_dom D h ->
  C06_conclusion m (run_hist m compressed h (new_vec own, None)).
Proof. intros R C compressed h own V Hin. exact (C06_driver_gen m agree D R C compressed h own V Hin). Qed.

(* The families state their instance with the two obligations beside it (`resume_ok /\ causal /\
   conclusion`), so that Props shows per method what was proved of it; this builds that shape. *)
Lemma C06_closed_on {Src St Out} (m : method Src St Out) (agree : nat -> Src -> Src -> Prop) (D : Src -> Prop) :
  resume_ok_on m D -> causal_on m agree D ->
  resume_ok_on m D /\ causal_on m agree D /\
  forall compressed h own, valid m agree compressed (new_vec own, None) h -> in_dom D h ->
    C06_conclusion m (run_hist m compressed h (new_vec own, None)).
Proof. intros R C. split; [exact R|]. split; [exact C|]. exact (C06_driver_on m agree D R C). Qed.

Theorem C06_driver_all {Src St Out} (m : method Src St Out) (agree : nat -> Src -> Src -> Prop) :
  resume_ok m -> causal m agree ->
  forall compressed h own, valid m agree compressed (new_vec own, None) h ->
  C06_conclusion m (run_hist m compressed h (new_vec own, None)).
Proof. intros R C compressed h own V. exact (C06_driver_on m agree _ R C compressed h own V (in_dom_true h)). Qed.

Theorem C06_batch_split_all {Src St Out} (m : method Src St Out) (agree : nat -> Src -> Src -> Prop) :
  resume_ok m -> causal m agree ->
  forall compressed h1 h2 own src,
  valid m agree compressed (new_vec own, None) h1 -> valid m agree compressed (new_vec own, None) h2 ->
  snd (run_hist m compressed h1 (new_vec own, None)) = Some (src, Ok tt) ->
  snd (run_hist m compressed h2 (new_vec own, None)) = Some (src, Ok tt) ->
  contents (fst (run_hist m compressed h1 (new_vec own, None))) =
  contents (fst (run_hist m compressed h2 (new_vec own, None))).
Proof.
  intros R C compressed h1 h2 own src V1 V2 E1 E2.
  exact (C06_batch_split_gen m agree _ R C compressed h1 h2 own src V1 (in_dom_true h1) V2 (in_dom_true h2) E1 E2).
Qed.

Lemma C06_closed_all {Src St Out} (m : method Src St Out) (agree : nat -> Src -> Src -> Prop) :
  resume_ok m -> causal m agree ->
  resume_ok m /\ causal m agree /\
  forall compressed h own, valid m agree compressed (new_vec own, None) h ->
    C06_conclusion m (run_hist m compressed h (new_vec own, None)).
Proof. intros R C. split; [exact R|]. split; [exact C|]. exact (C06_driver_all m agree R C). Qed.
