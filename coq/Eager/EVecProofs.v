(* The vector operations of EDriver.v alone (no method): one equation per operation giving the
   record it returns; `write_eq` holds only under the disk invariant `dinv`, which every operation
   keeps.  The driver proofs use the operations through these equations. *)
From Anydb Require Import Common.Base Eager.EDriver.

Section Vec.
Context {Out : Type}.
Implicit Types v : vec Out.

Lemma contents_length v : length (contents v) = vlen v.
Proof. unfold contents, vlen. now rewrite app_length. Qed.

Lemma vlen_0 v : vlen v = 0%nat -> stored v = [] /\ pushed v = [].
Proof. unfold vlen. intros H. split; apply length_zero_iff_nil; lia. Qed.

(* hand_push is also what one batch of the driver does to the vector *)
Lemma hand_push_nil v : hand_push v [] = v.
Proof. destruct v. unfold hand_push. cbn. now rewrite app_nil_r. Qed.

Lemma contents_hand_push v os : contents (hand_push v os) = contents v ++ os.
Proof. unfold contents. cbn. now rewrite app_assoc. Qed.

Lemma vlen_hand_push v os : vlen (hand_push v os) = (vlen v + length os)%nat.
Proof. now rewrite <- !contents_length, contents_hand_push, app_length. Qed.

Lemma push_all_eq v os : push_all v (vlen v) os = Ok (hand_push v os).
Proof.
  destruct os as [|o t]; [now rewrite hand_push_nil|].
  unfold push_all. now rewrite Nat.eqb_refl.
Qed.

Lemma truncate_eq v k :
  truncate_if_needed v k =
  mkVec (firstn k (stored v)) (firstn (k - length (stored v)) (pushed v)) (vv v) (cv v) (modified v)
        (disk v) (disk_cv v) (mem_real v) (pages_dirty v).
Proof.
  unfold truncate_if_needed, vlen. destruct (Nat.leb_spec (length (stored v) + length (pushed v)) k).
  - rewrite !firstn_all2 by lia. now destruct v.
  - destruct (Nat.leb_spec k (length (stored v))).
    + now replace (k - length (stored v))%nat with O by lia.
    + now rewrite (firstn_all2 (stored v)) by lia.
Qed.

Lemma truncate_contents v k : contents (truncate_if_needed v k) = firstn k (contents v).
Proof. rewrite truncate_eq. unfold contents. cbn. now rewrite firstn_app. Qed.

Lemma validate_eq compressed v dep : vv v + dep = cv v -> validate compressed v dep = v.
Proof. intros H. unfold validate. now rewrite H, N.eqb_refl. Qed.

Lemma validate_ne compressed v dep :
  vv v + dep <> cv v ->
  validate compressed v dep =
  let z := compressed && negb (Nat.eqb (vlen v) 0) in
  mkVec [] [] (vv v) (vv v + dep) true (disk v) (disk_cv v)
        (if z then O else mem_real v) (if z then true else pages_dirty v).
Proof.
  intros H. unfold validate. apply N.eqb_neq in H. rewrite H.
  change (vlen (mkVec (stored v) (pushed v) _ _ _ _ _ _ _)) with (vlen v).
  destruct (Nat.eqb_spec (vlen v) 0) as [Hz|_].
  - destruct (vlen_0 v Hz) as [-> ->]. now rewrite andb_false_r.
  - rewrite andb_true_r. unfold reset. cbn. now destruct compressed.
Qed.

Lemma validate_cv compressed v dep : cv (validate compressed v dep) = vv v + dep.
Proof.
  destruct (N.eq_dec (vv v + dep) (cv v)) as [E|E]; [now rewrite validate_eq|now rewrite validate_ne].
Qed.

Lemma write_contents v : contents (write v) = contents v.
Proof. unfold write, contents. destruct (_ && _); cbn; [reflexivity|]. now rewrite app_nil_r. Qed.

Lemma write_cv v : cv (write v) = cv v.
Proof. unfold write. now destruct (_ && _). Qed.

(* what both formats guarantee about the disk image: unless the page index has a pending change,
   write()'s notion of the on-disk length (mem_real) is exact *)
Definition dinv v : Prop :=
  (pages_dirty v = false -> mem_real v = length (disk v)) /\ stored v = firstn (length (stored v)) (disk v).

(* under dinv the early return of write() is taken only when memory and disk already coincide, so
   both branches leave the same vector *)
Lemma write_eq v :
  dinv v ->
  write v = mkVec (contents v) [] (vv v) (cv v) false (contents v)
                  (if modified v then cv v else disk_cv v) (length (contents v)) false.
Proof.
  intros [H1 H2]. unfold write, contents. destruct (_ && _) eqn:E; [|reflexivity].
  apply andb_prop in E. destruct E as [E Ed]. apply andb_prop in E. destruct E as [Ea Eb].
  apply negb_true_iff in Ed. apply Nat.eqb_eq in Ea, Eb. apply length_zero_iff_nil in Ea.
  assert (Hsd : stored v = disk v) by (rewrite H2, Eb, (H1 Ed); apply firstn_all).
  rewrite Ea, app_nil_r, <- Hsd, Eb. reflexivity.
Qed.

Lemma dinv_synced (l : list Out) a b c d : dinv (mkVec l [] a b c l d (length l) false).
Proof. split; cbn; [reflexivity|now rewrite firstn_all]. Qed.

Lemma write_dinv v : dinv v -> dinv (write v).
Proof. intros H. rewrite write_eq by exact H. apply dinv_synced. Qed.

Lemma reimport_dinv v : dinv (reimport v).
Proof. apply dinv_synced. Qed.

Lemma reimport_write_contents v : dinv v -> contents (reimport (write v)) = contents v.
Proof. intros H. rewrite write_eq by exact H. apply app_nil_r. Qed.

Lemma new_vec_dinv own : dinv (new_vec own : vec Out).
Proof. apply dinv_synced. Qed.

Lemma hand_push_dinv v os : dinv v -> dinv (hand_push v os).
Proof. intros H. exact H. Qed.

Lemma truncate_dinv v k : dinv v -> dinv (truncate_if_needed v k).
Proof.
  intros [A B]. rewrite truncate_eq. split; cbn; [exact A|].
  rewrite B at 1. now rewrite firstn_firstn, firstn_length.
Qed.

Lemma validate_dinv compressed v dep : dinv v -> dinv (validate compressed v dep).
Proof.
  intros H. destruct (N.eq_dec (vv v + dep) (cv v)) as [E|E]; [now rewrite validate_eq|].
  rewrite validate_ne by exact E. destruct H as [A _]. split; cbn; [|reflexivity].
  destruct (compressed && _); [discriminate|exact A].
Qed.

End Vec.
