(* The monotonic deque (statistics.rs:32 update_deque) and F5 (compute_max / compute_min,
   statistics.rs:18 compute_monotonic_window): the deque rebuilt over [skip - window, skip) equals
   the deque a from-scratch run holds at skip.  Shape of the argument:
   a deque d ++ e whose old part d has only indices below a and whose new part e has only indices
   >= a evolves as d' ++ (evolution of e alone) with d' a remnant of d; at the last step before skip
   every remnant of d is popped at the front (`iter_app`, `iter_window`).  The theory is developed
   once, over the predicate F that decides the front pops of step i (`upd`, `iter`; F i must be
   `anti`), and serves the fixed windows here (`rebuild_window`; `monotonic_closed`, for windows >= 1:
   `window_pos`) and the window starts of ERollingProofs.v. *)
From Anydb Require Import Common.Base Eager.EDriver Eager.EDriverProofs Eager.EFamilies Eager.EFamiliesProofs.

Section Deque.
Variable sp : N -> N -> bool.
Variable l : list N.
Notation dq := (list (nat * N)).

Fixpoint pop_front_p (p : nat * N -> bool) (d : dq) : dq :=
  match d with x :: t => if p x then pop_front_p p t else d | [] => [] end.

(* an entry that stays protects every later entry *)
Definition anti (p : nat * N -> bool) : Prop :=
  forall x y, (fst x < fst y)%nat -> p x = false -> p y = false.

Lemma pfp_incl p (d : dq) : incl (pop_front_p p d) d.
Proof.
  induction d as [|x t IH]; [apply incl_refl|]. cbn [pop_front_p].
  destruct (p x); [apply incl_tl, IH|apply incl_refl].
Qed.

Lemma pfp_app p (d e : dq) :
  anti p -> (forall x y, In x d -> In y e -> (fst x < fst y)%nat) ->
  exists d1, incl d1 d /\ pop_front_p p (d ++ e) = d1 ++ pop_front_p p e.
Proof.
  intros Hp. induction d as [|x t IH]; intros Hb.
  - exists []. split; [apply incl_refl|reflexivity].
  - cbn [app pop_front_p]. destruct (p x) eqn:Ec.
    + destruct IH as (d1 & Hi & He); [intros; apply Hb; cbn; auto|].
      exists d1. split; [apply incl_tl; exact Hi|exact He].
    + exists (x :: t). split; [apply incl_refl|]. cbn [app]. f_equal. f_equal.
      destruct e as [|y e']; [reflexivity|]. cbn [pop_front_p].
      now rewrite (Hp x y) by (try apply Hb; cbn; auto).
Qed.

Lemma pfp_all p (d e : dq) : (forall x, In x d -> p x = true) -> pop_front_p p (d ++ e) = pop_front_p p e.
Proof.
  induction d as [|x t IH]; intros H; [reflexivity|]. cbn [app pop_front_p].
  rewrite (H x) by (cbn; auto). apply IH. intros; apply H; cbn; auto.
Qed.

Lemma pfp_id p (d : dq) : (forall x, In x d -> p x = false) -> pop_front_p p d = d.
Proof. destruct d as [|x t]; [reflexivity|]. intros H. cbn [pop_front_p]. now rewrite (H x) by (left; reflexivity). Qed.

Lemma pbw_snoc v (d : dq) x :
  pop_back_while sp v (d ++ [x]) = if sp (snd x) v then pop_back_while sp v d else d ++ [x].
Proof.
  unfold pop_back_while. rewrite rev_unit. destruct x as [idx u]. cbn [pop_back_rev snd].
  destruct (sp u v); [reflexivity|]. cbn [rev]. now rewrite rev_involutive.
Qed.

Lemma pbw_incl v (d : dq) : incl (pop_back_while sp v d) d.
Proof.
  induction d as [|x d IH] using rev_ind; [apply incl_refl|]. rewrite pbw_snoc.
  destruct (sp _ _); [apply incl_appl, IH|apply incl_refl].
Qed.

Lemma pbw_app v (d e : dq) :
  exists d2, incl d2 d /\ pop_back_while sp v (d ++ e) = d2 ++ pop_back_while sp v e.
Proof.
  induction e as [|x e IH] using rev_ind.
  - exists (pop_back_while sp v d). split; [apply pbw_incl|]. now rewrite !app_nil_r.
  - rewrite app_assoc, !pbw_snoc. destruct (sp _ _); [exact IH|].
    exists d. split; [apply incl_refl|]. now rewrite app_assoc.
Qed.

Variable F : nat -> nat * N -> bool.

Definition upd (d : dq) (i : nat) : dq :=
  pop_back_while sp (at_ l i) (pop_front_p (F i) d) ++ [(i, at_ l i)].
Fixpoint iter (d : dq) (i n : nat) : dq :=
  match n with O => d | S n' => iter (upd d i) (S i) n' end.

Lemma upd_incl (e : dq) i x : In x (upd e i) -> In x e \/ x = (i, at_ l i).
Proof.
  unfold upd. intros H. apply in_app_or in H. destruct H as [H|[H|[]]]; [left|right; now symmetry].
  apply pbw_incl in H. now apply pfp_incl in H.
Qed.

Lemma upd_app (d e : dq) i :
  anti (F i) -> (forall x y, In x d -> In y e -> (fst x < fst y)%nat) ->
  exists d', incl d' d /\ upd (d ++ e) i = d' ++ upd e i.
Proof.
  intros Ha Hb. unfold upd. destruct (pfp_app (F i) d e Ha Hb) as (d1 & Hi1 & E1). rewrite E1.
  destruct (pbw_app (at_ l i) d1 (pop_front_p (F i) e)) as (d2 & Hi2 & E2). rewrite E2.
  exists d2. split; [eapply incl_tran; eauto|]. now rewrite app_assoc.
Qed.

Lemma iter_split n1 : forall n2 d i, iter d i (n1 + n2) = iter (iter d i n1) (i + n1) n2.
Proof.
  induction n1 as [|n1 IH]; intros n2 d i; cbn [Nat.add iter].
  - now rewrite Nat.add_0_r.
  - rewrite IH. f_equal. lia.
Qed.

Lemma iter_last d i n : iter d i (S n) = upd (iter d i n) (i + n).
Proof. replace (S n) with (n + 1)%nat by lia. rewrite iter_split. reflexivity. Qed.

Definition all_lt (a : nat) (d : dq) : Prop := forall x, In x d -> (fst x < a)%nat.
Definition all_ge (a : nat) (d : dq) : Prop := forall x, In x d -> (a <= fst x)%nat.

Lemma upd_all_ge a e i : all_ge a e -> (a <= i)%nat -> all_ge a (upd e i).
Proof. intros He Hai x Hx. apply upd_incl in Hx. destruct Hx as [Hx| ->]; [now apply He|exact Hai]. Qed.

Lemma iter_all_lt n : forall d i, all_lt i d -> all_lt (i + n) (iter d i n).
Proof.
  induction n as [|n IH]; intros d i H; cbn [iter]; [now rewrite Nat.add_0_r|].
  replace (i + S n)%nat with (S i + n)%nat by lia. apply IH.
  intros x Hx. apply upd_incl in Hx. destruct Hx as [Hx| ->]; [apply H in Hx; lia|cbn; lia].
Qed.

Lemma iter_app a n : (forall i, anti (F i)) ->
  forall d e i, all_lt a d -> all_ge a e -> (a <= i)%nat ->
  exists d', incl d' d /\ iter (d ++ e) i n = d' ++ iter e i n.
Proof.
  intros Ha. induction n as [|n IH]; intros d e i Hd He Hai; cbn [iter].
  - exists d. split; [apply incl_refl|reflexivity].
  - destruct (upd_app d e i (Ha i)) as (d' & Hi & E).
    { intros x y Hx Hy. apply Hd in Hx. apply He in Hy. lia. }
    rewrite E. destruct (IH d' (upd e i) (S i)) as (d'' & Hi2 & E2).
    + intros x Hx. apply Hd. now apply Hi.
    + now apply upd_all_ge.
    + lia.
    + exists d''. split; [eapply incl_tran; eauto|exact E2].
Qed.

Lemma iter_window a k :
  (forall i, anti (F i)) -> (a < k)%nat -> (forall x, (fst x < a)%nat -> F (k - 1) x = true) -> iter [] 0 k = iter [] a (k - a).
Proof.
  intros Ha Hak Hpop. destruct (k - a)%nat as [|n] eqn:En; [lia|].
  replace k with (a + S n)%nat at 1 by lia. rewrite iter_split. cbn [Nat.add]. rewrite !iter_last.
  destruct (iter_app a n Ha (iter [] 0 a) [] a) as (d' & Hi & E); [|intros x []|lia|].
  { apply (iter_all_lt a [] 0%nat). intros x []. }
  rewrite app_nil_r in E. rewrite E. unfold upd. replace (a + n)%nat with (k - 1)%nat by lia.
  rewrite pfp_all; [reflexivity|]. intros x Hx. apply Hpop.
  exact (iter_all_lt a [] 0%nat ltac:(intros y []) x (Hi x Hx)).
Qed.
End Deque.

Definition fcond (w : N) (i : nat) (x : nat * N) : bool := (w <=? ni i) && (ni (fst x) <=? ni i - w).

Lemma fcond_anti w i : anti (fcond w i).
Proof.
  intros x y Hxy. unfold fcond, ni. destruct (w <=? N.of_nat i); [|reflexivity]. cbn [andb].
  rewrite !N.leb_gt. lia.
Qed.

Lemma pfw_eq w i d : pop_front_while w i d = pop_front_p (fcond w i) d.
Proof. induction d as [|[idx v] t IH]; [reflexivity|]. cbn [pop_front_while pop_front_p]. now rewrite IH. Qed.

Lemma update_deque_eq sp w l d i : update_deque sp w d i (at_ l i) = upd sp l (fcond w) d i.
Proof. unfold update_deque, upd. now rewrite pfw_eq. Qed.

Lemma rebuild_eq sp w l : forall n d i, rebuild sp w l d i n = iter sp l (fcond w) d i n.
Proof.
  induction n as [|n IH]; intros d i; [reflexivity|]. cbn [rebuild iter]. now rewrite IH, update_deque_eq.
Qed.

Lemma rebuild_window sp w l k : 1 <= w -> (1 <= k)%nat ->
  rebuild sp w l [] 0 k = rebuild sp w l [] (N.to_nat (ni k - w)) (k - N.to_nat (ni k - w)).
Proof.
  intros Hw Hk. rewrite !rebuild_eq. apply iter_window; [intros i; apply fcond_anti|unfold ni; lia|].
  intros x Hx. unfold fcond, ni in *. apply andb_true_intro. rewrite !N.leb_le. lia.
Qed.

Definition window_pos (s : srcs) : Prop := 1 <= par s.

Lemma monotonic_resume_ok sp : resume_ok_on (monotonic sp) window_pos.
Proof.
  intros src k st outs Hw H _.
  destruct (scratch_run_state _ (fun j s _ => s = rebuild sp (par src) (sn src 0) [] 0 j) _ _ _ _ H) as [-> _].
  - now intros st0 [= <-].
  - intros j s os s' o _ -> Hs. rewrite rebuild_eq, iter_last, <- rebuild_eq.
    cbn [monotonic step] in Hs. rewrite update_deque_eq in Hs.
    destruct (upd _ _ _ _ _) as [|[]]; now inversion Hs.
  - assert (E : forall c, (0 < k)%nat -> recover (monotonic sp) src outs k c =
                   Ok (rebuild sp (par src) (sn src 0) [] 0 k)).
    { intros c Hk. cbn [recover monotonic]. f_equal. symmetry. apply rebuild_window; [exact Hw|lia]. }
    split; [intros Hk; now apply E|].
    destruct (Nat.eq_dec k 0) as [->|Hnz]; [reflexivity|apply E; lia].
Qed.

Lemma monotonic_local sp D : local (monotonic sp) D.
Proof.
  intros d a b _ _ Ha. split; [now apply tgt1_min|]. split; [reflexivity|].
  intros i st os Hi _. cbn. rewrite (agree_par d a b Ha). now rewrite (agree_at d a b 0 i Ha Hi).
Qed.

Definition monotonic_statement (sp : N -> N -> bool) : Prop :=
  resume_ok_on (monotonic sp) window_pos /\ causal_on (monotonic sp) agree_srcs window_pos /\
  forall compressed h own, valid (monotonic sp) agree_srcs compressed (new_vec own, None) h -> in_dom window_pos h ->
    C06_conclusion (monotonic sp) (run_hist (monotonic sp) compressed h (new_vec own, None)).

Theorem monotonic_closed sp : monotonic_statement sp.
Proof. apply C06_closed_on; [apply monotonic_resume_ok|apply local_causal, monotonic_local]. Qed.

Theorem max_closed : monotonic_statement (fun v value => v <? value).
Proof. exact (monotonic_closed _). Qed.
Theorem min_closed : monotonic_statement (fun v value => value <? v).
Proof. exact (monotonic_closed _). Qed.
