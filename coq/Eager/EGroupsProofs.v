(* F7 (index-group aggregates).  The output index space (groups) differs from the index space of the
   element source, so "the sources agree below d" is taken semantically, `agree_scratch`: the from-scratch outputs of the two source snapshots agree below d
   — which is how the harness computes the first changed index for these methods.  That is word for
   word the conclusion of `causal_on`, so causality holds by definition (`agree_scratch_causal`), and
   nothing is proved about which changes of the sources leave the outputs below d alone.  Proved
   per method, as `f7_statement`: resume_ok (sum_from_indexes under `groups_ok`) and with it the
   driver theorem for histories valid in that sense. *)
From Anydb Require Import Common.Base Eager.EDriver Eager.EDriverProofs Eager.EFamilies Eager.EFamiliesProofs.

Definition agree_scratch {St} (m : method srcs St N) (d : nat) (a b : srcs) : Prop :=
  Nat.min d (target m a) = Nat.min d (target m b) /\
  forall k, (k <= d)%nat -> (k <= target m a)%nat -> (0 < k)%nat -> scratch_run m a k = scratch_run m b k.

Lemma agree_scratch_causal {St} (m : method srcs St N) (D : srcs -> Prop) : causal_on m (agree_scratch m) D.
Proof. intros d a b _ _ H. exact H. Qed.

Definition f7_statement {St} (m : method srcs St N) (D : srcs -> Prop) : Prop :=
  resume_ok_on m D /\
  forall compressed h own, valid m (agree_scratch m) compressed (new_vec own, None) h -> in_dom D h ->
    C06_conclusion m (run_hist m compressed h (new_vec own, None)).

Lemma f7_intro {St} (m : method srcs St N) (D : srcs -> Prop) : resume_ok_on m D -> f7_statement m D.
Proof.
  intros R. split; [exact R|]. exact (C06_driver_on m _ D R (agree_scratch_causal m D)).
Qed.

Theorem count_fi_closed : f7_statement m_count_fi (fun _ => True).
Proof. apply f7_intro, stateless_resume_ok. Qed.
Theorem fcount_fi_closed : f7_statement m_fcount_fi (fun _ => True).
Proof. apply f7_intro, stateless_resume_ok. Qed.
(* m_indirect (EFamilies.v) models the method for non-decreasing keys, where the cursor is stateless;
   the statement has no hypothesis on the keys *)
Theorem indirect_closed : f7_statement m_indirect (fun _ => True).
Proof. apply f7_intro, stateless_resume_ok. Qed.

(* compute_sum_from_indexes: consistent group layout first[g+1] = first[g] + count[g] *)
Definition groups_ok (s : srcs) : Prop :=
  (slen s 2 <= slen s 1)%nat /\
  forall g, (S g < slen s 1)%nat -> at_ (sn s 1) (S g) = at_ (sn s 1) g + at_ (sn s 2) g.

Lemma sum_fi_resume_ok keep : resume_ok_on (sum_from_indexes keep) groups_ok.
Proof.
  intros src k st outs [Hl Hg] H Hk. cbn [target sum_from_indexes] in Hk.
  destruct (scratch_run_state _ (fun j s _ => s = N.to_nat (at_ (sn src 1) j)) _ _ _ _ H) as [-> _].
  - now intros st0 [= <-].
  - intros j s os s' o Hj -> Hs. cbn [sum_from_indexes step] in Hs.
    destruct (Nat.leb _ _); [|discriminate]. injection Hs as <- _. rewrite Hg by lia. lia.
  - split; reflexivity.
Qed.

Theorem sum_fi_closed : f7_statement m_sum_fi groups_ok.
Proof. apply f7_intro, sum_fi_resume_ok. Qed.
Theorem fsum_fi_closed : f7_statement m_fsum_fi groups_ok.
Proof. apply f7_intro, sum_fi_resume_ok. Qed.

(* compute_first_per_index (own resume logic, EFamilies.fpi_call): the faithful model refutes both
   clauses of the property *)
Definition fpi_other1 : list N := [2; 3; 3; 4].
(* a batch that reaches the limit (cap = 1 element) with max_from = 0 below the last stored value:
   every iteration restarts at item 0 and pushes >= cap elements again *)
Theorem fpi_batch_limit_refuted :
  snd (fpi_call false fpi_other1 1 0 1 (new_vec 0)) = Err OutOfFuel /\
  snd (fpi_call false fpi_other1 1 0 100 (new_vec 0)) = Ok tt.
Proof. vm_compute. auto. Qed.

(* truncation + regrowth into a higher group, restart at the first changed item (a group boundary):
   other [0,1,2] -> [0,3]; the entry of the vanished group 2 stays *)
Theorem fpi_regrowth_refuted :
  let v1 := fst (fpi_call false [0; 1; 2] 1 0 100 (new_vec 0)) in
  let v2 := fst (fpi_call false [0; 3] 1 1 100 v1) in
  contents v1 = [0; 1; 2] /\ contents v2 = [0; 1; 2; 1] /\ fpi_scratch [0; 3] = [0; 1; 1; 1].
Proof. vm_compute. auto. Qed.
