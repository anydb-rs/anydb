(* F6: variable windows from a window-starts vector (compute_rolling_sum statistics.rs:172,
   compute_rolling_{max,min}_from_starts statistics.rs:524, :545), under the documented precondition
   `starts_mono`: window starts are non-decreasing and never point forward.  `rolling_sum_closed` reads
   resume_ok and locality off `rolling_sum_run`, the state of the run; `monotonic_fs_closed` is the
   deque argument of EDequeProofs.v with front pops `fs_front`. *)
From Anydb Require Import Common.Base Eager.EDriver Eager.EDriverProofs Eager.EFamilies Eager.EFamiliesProofs
  Eager.EDequeProofs.

Definition starts_mono (s : srcs) : Prop :=
  starts_ok s /\ forall i j, (i <= j)%nat -> (j < slen s 1)%nat -> at_ (sn s 1) i <= at_ (sn s 1) j.

Definition start_at (s : srcs) (k : nat) : N := match k with O => 0 | S k' => at_ (sn s 1) k' end.

Lemma start_at_le s j : starts_ok s -> (N.to_nat (start_at s j) <= j)%nat.
Proof. intros H. destruct j; cbn [start_at]; [lia|]. pose proof (start_le s j H). lia. Qed.

(* compute_rolling_sum at index j: the running sum is the last output, the previous start and the leaving
   cursor are the window start of index j - 1 *)
Definition rolling_sum_state (src : srcs) (j : nat) (st : N * N * nat) (os : list N) : Prop :=
  st = (last os 0, start_at src j, N.to_nat (start_at src j)).

Lemma rolling_sum_run : run_inv m_rolling_sum starts_mono rolling_sum_state.
Proof.
  split; [now intros src st0 _ [= <-]|].
  intros src j [[rs ps] pos] os st' o [Hok Hmono] Hj [= -> -> ->] Hs. cbn [m_rolling_sum step] in Hs.
  cbn [target m_rolling_sum] in Hj. unfold tgt2 in Hj. unfold rolling_sum_state.
  assert (Hsi : (N.to_nat (at_ (sn src 1) j) <= j)%nat) by (apply Hok; lia).
  assert (Hge : start_at src j <= at_ (sn src 1) j).
  { destruct j; cbn [start_at]; [lia|]. apply Hmono; lia. }
  change (at_ (sn src 1) j) with (start_at src (S j)) in *.
  destruct (N.ltb_spec (start_at src j) (start_at src (S j))).
  - rewrite Nat.min_l in Hs by lia. destruct (_ <=? _) in Hs; [|discriminate].
    injection Hs as <- <-. rewrite last_last. repeat f_equal. cbn [start_at] in *. lia.
  - injection Hs as <- <-. rewrite last_last. replace (start_at src (S j)) with (start_at src j) by lia.
    reflexivity.
Qed.

Lemma rolling_sum_resume_ok : resume_ok_on m_rolling_sum starts_mono.
Proof.
  intros src k st outs HD H Hk. destruct (run_inv_at _ _ _ _ _ _ _ rolling_sum_run HD (Nat.lt_le_incl _ _ Hk) H) as [-> <-].
  cbn [target m_rolling_sum] in Hk. unfold tgt2 in Hk. destruct HD as [Hok _].
  rewrite <- (prev_out_last 0 outs). destruct (length outs) as [|k']; [split; reflexivity|].
  pose proof (Hok k' ltac:(lia)). cbn [start_at recover m_rolling_sum prev_out].
  split; [intros _|]; repeat f_equal; lia.
Qed.

Lemma sum_range_local (la lb : list N) from n d :
  firstn d la = firstn d lb -> (from + n <= d)%nat -> sum_range la from n = sum_range lb from n.
Proof.
  intros Hf. revert from. induction n as [|n IH]; intros from Hb; [reflexivity|]. cbn [sum_range].
  rewrite (IH (S from)) by lia. f_equal. apply (at_firstn la lb d); [exact Hf|lia].
Qed.

(* the window start of index i - 1 does not exceed i, so the leaving range lies below d *)
Lemma rolling_sum_local : local_on m_rolling_sum starts_mono rolling_sum_state.
Proof.
  intros d a b _ [Dok _] Ha. split; [now apply tgt2_min|]. split; [reflexivity|].
  intros i [[rs ps] pos] os Hi [= _ -> ->]. cbn [step m_rolling_sum].
  rewrite (agree_at d a b 0 i Ha Hi), (agree_at d a b 1 i Ha Hi).
  pose proof (start_le b i Dok) as Hsl. pose proof (start_at_le b i Dok) as Hpl.
  set (start := at_ (sn b 1) i) in *. set (ps := start_at b i) in *.
  destruct (ps <? start) eqn:Elt; [|reflexivity]. apply N.ltb_lt in Elt.
  pose proof (agree_slen d a b 0 Ha) as Hm. set (pos := N.to_nat ps) in *.
  assert (Hn : Nat.min (N.to_nat (start - ps)) (slen a 0 - pos) = Nat.min (N.to_nat (start - ps)) (slen b 0 - pos)) by lia.
  rewrite Hn. set (n' := Nat.min _ (slen b 0 - pos)).
  destruct Ha as [_ Hf]. rewrite (sum_range_local (sn a 0) (sn b 0) pos n' d (Hf 0%nat)) by (unfold n'; lia).
  reflexivity.
Qed.

Theorem rolling_sum_closed :
  resume_ok_on m_rolling_sum starts_mono /\ causal_on m_rolling_sum agree_srcs starts_mono /\
  forall compressed h own, valid m_rolling_sum agree_srcs compressed (new_vec own, None) h -> in_dom starts_mono h ->
    C06_conclusion m_rolling_sum (run_hist m_rolling_sum compressed h (new_vec own, None)).
Proof.
  apply C06_closed_on; [apply rolling_sum_resume_ok|exact (run_inv_causal _ _ _ rolling_sum_run rolling_sum_local)].
Qed.

Definition fs_front (ws : list N) (i : nat) (x : nat * N) : bool := ni (fst x) <? at_ ws i.

Lemma fs_front_anti ws i : anti (fs_front ws i).
Proof. intros x y Hxy. unfold fs_front, ni. rewrite !N.ltb_ge. lia. Qed.

Lemma pfl_eq ws i d : pop_front_lt (at_ ws i) d = pop_front_p (fs_front ws i) d.
Proof. induction d as [|[idx v] t IH]; [reflexivity|]. cbn [pop_front_lt pop_front_p]. now rewrite IH. Qed.

(* rebuild_fs makes no front pops *)
Lemma rebuild_fs_eq sp l F a : forall n d i,
  all_ge a d -> (a <= i)%nat -> (forall j x, (i <= j < i + n)%nat -> (a <= fst x)%nat -> F j x = false) ->
  rebuild_fs sp l d i n = iter sp l F d i n.
Proof.
  induction n as [|n IH]; intros d i Hd Hai HF; [reflexivity|]. cbn [rebuild_fs iter].
  assert (E : pop_back_while sp (at_ l i) d ++ [(i, at_ l i)] = upd sp l F d i).
  { unfold upd. rewrite pfp_id; [reflexivity|]. intros x Hx. apply HF; [lia|now apply Hd]. }
  rewrite E. apply IH; [now apply upd_all_ge|lia|]. intros j x Hj. apply HF. lia.
Qed.

Lemma run_fs_window sp l ws k :
  (N.to_nat (at_ ws k) <= k)%nat -> (forall j, (j <= k)%nat -> at_ ws j <= at_ ws k) ->
  iter sp l (fs_front ws) [] 0 (S k) = rebuild_fs sp l [] (N.to_nat (at_ ws k)) (S k - N.to_nat (at_ ws k)).
Proof.
  intros Hle Hmono. set (a := N.to_nat (at_ ws k)) in *.
  rewrite (iter_window sp l (fs_front ws) a (S k)); [|intros i; apply fs_front_anti|lia|];
    replace (S k - 1)%nat with k by lia.
  - (* from a on, no window start exceeds a, so no entry >= a is popped at the front *)
    symmetry. apply (rebuild_fs_eq sp l _ a); [intros x []|lia|]. intros j x Hj Hx. unfold fs_front, ni.
    apply N.ltb_ge. pose proof (Hmono j ltac:(lia)). unfold a in *. lia.
  - intros x Hx. unfold fs_front, ni. apply N.ltb_lt. unfold a in *. lia.
Qed.

Lemma monotonic_fs_resume_ok sp : resume_ok_on (monotonic_fs sp) starts_mono.
Proof.
  intros src k st outs [Hok Hmono] H Hk. cbn [target monotonic_fs] in Hk. unfold tgt2 in Hk.
  destruct (scratch_run_state _ (fun j s _ => s = iter sp (sn src 0) (fs_front (sn src 1)) [] 0 j) _ _ _ _ H) as [-> _].
  - now intros st0 [= <-].
  - intros j s os s' o _ -> Hs. rewrite iter_last. cbn [monotonic_fs step] in Hs. rewrite pfl_eq in Hs.
    fold (upd sp (sn src 0) (fs_front (sn src 1)) (iter sp (sn src 0) (fs_front (sn src 1)) [] 0 j) j) in Hs.
    destruct (upd _ _ _ _ _) as [|[]]; now inversion Hs.
  - assert (E : forall c, (0 < k)%nat -> recover (monotonic_fs sp) src outs k c =
                   Ok (iter sp (sn src 0) (fs_front (sn src 1)) [] 0 k)).
    { intros c Hpos. destruct k as [|k']; [lia|]. cbn [recover monotonic_fs]. f_equal. symmetry.
      apply run_fs_window; [apply Hok; lia|intros j Hj; apply Hmono; lia]. }
    split; [intros Hpos; now apply E|].
    destruct (Nat.eq_dec k 0) as [->|Hnz]; [reflexivity|apply E; lia].
Qed.

Lemma monotonic_fs_local sp D : local (monotonic_fs sp) D.
Proof.
  intros d a b _ _ Ha. split; [now apply tgt2_min|]. split; [reflexivity|].
  intros i st os Hi _. cbn. now rewrite (agree_at d a b 0 i Ha Hi), (agree_at d a b 1 i Ha Hi).
Qed.

Definition monotonic_fs_statement (sp : N -> N -> bool) : Prop :=
  resume_ok_on (monotonic_fs sp) starts_mono /\ causal_on (monotonic_fs sp) agree_srcs starts_mono /\
  forall compressed h own, valid (monotonic_fs sp) agree_srcs compressed (new_vec own, None) h -> in_dom starts_mono h ->
    C06_conclusion (monotonic_fs sp) (run_hist (monotonic_fs sp) compressed h (new_vec own, None)).

Theorem monotonic_fs_closed sp : monotonic_fs_statement sp.
Proof. apply C06_closed_on; [apply monotonic_fs_resume_ok|apply local_causal, monotonic_fs_local]. Qed.

Theorem rolling_max_fs_closed : monotonic_fs_statement (fun back new => back <=? new).
Proof. exact (monotonic_fs_closed _). Qed.
Theorem rolling_min_fs_closed : monotonic_fs_statement (fun back new => new <=? back).
Proof. exact (monotonic_fs_closed _). Qed.
