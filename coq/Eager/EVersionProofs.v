(* C19 over the tagged driver of EVersion.v (every output carries the version and the serial of the
   call that evaluated it).  The invariant is `tinv`: header bookkeeping `hdr_ok`, the elements in memory `mem_ok`, the disk image `disk_ok`; every operation
   keeps it (`vrun_tinv`).  `compute_tagged_spec` says what one call leaves.  The C19 theorems
   `discard`, `no_recompute`, `no_mix`, `persist` are read off these two. *)
From Anydb Require Import Common.Base Eager.EDriver Eager.EDriverProofs Eager.EVersion.

Lemma Forall_firstn {A} (Q : A -> Prop) n l : Forall Q l -> Forall Q (firstn n l).
Proof. intros H. rewrite <- (firstn_skipn n l) in H. now apply Forall_app in H. Qed.

Section C19.
Context {Src St Out : Type}.
Variable m : method Src St Out.
Notation tout := (@tout Out).

Definition hdr_ok (v : vec tout) : Prop := modified v = false -> disk_cv v = cv v.
Definition mem_ok (v : vec tout) : Prop := Forall (fun x => tver x = cv v) (contents v).
Definition disk_ok (v : vec tout) : Prop :=
  dinv v /\ Forall (fun x => tver x = disk_cv v) (disk v).
Definition tinv (v : vec tout) : Prop := hdr_ok v /\ mem_ok v /\ disk_ok v.

Lemma tagm_step_tag t : forall src st i st' o,
  step (tagm m t) src st i = Ok (st', o) -> snd o = t.
Proof.
  intros src st i st' o H. cbn in H. destruct (step m src st i) as [[s1 o1]| |]; cbn in H; inversion H. reflexivity.
Qed.

(* the version write() records on disk is the one in memory *)
Lemma hdr_ok_dcv (v : vec tout) : hdr_ok v -> (if modified v then cv v else disk_cv v) = cv v.
Proof. intros H. destruct (modified v) eqn:E; [reflexivity|exact (H E)]. Qed.

Lemma write_tinv (v : vec tout) : tinv v -> tinv (write v).
Proof.
  intros (Hh & Hm & [Hd Hk]). rewrite write_eq, hdr_ok_dcv by assumption.
  split; [intros _; reflexivity|]. split; [|split; [apply dinv_synced|exact Hm]].
  unfold mem_ok, contents at 1. cbn. now rewrite app_nil_r.
Qed.

Lemma reimport_tinv (v : vec tout) : tinv v -> tinv (reimport v).
Proof.
  intros (Hh & Hm & [Hd Hk]). split; [intros _; reflexivity|]. split.
  - unfold mem_ok, reimport, contents. cbn. rewrite app_nil_r. exact Hk.
  - split; [apply reimport_dinv|exact Hk].
Qed.

Lemma push_tinv (v : vec tout) outs :
  tinv v -> Forall (fun x => tver x = cv v) outs -> tinv (hand_push v outs).
Proof.
  intros (Hh & Hm & Hd) HF. split; [exact Hh|]. split; [|exact Hd].
  unfold mem_ok. rewrite contents_hand_push. apply Forall_app. auto.
Qed.

Lemma truncate_tinv (v : vec tout) k : tinv v -> tinv (truncate_if_needed v k).
Proof.
  intros (Hh & Hm & [Hd Hk]). split; [|split; [|split]].
  - rewrite truncate_eq. exact Hh.
  - unfold mem_ok. rewrite truncate_contents, truncate_eq. now apply Forall_firstn.
  - now apply truncate_dinv.
  - rewrite truncate_eq. exact Hk.
Qed.

Lemma validate_tinv compressed (v : vec tout) dep : tinv v -> tinv (validate compressed v dep).
Proof.
  intros HT. pose proof HT as (Hh & Hm & [Hd Hk]). pose proof (validate_dinv compressed v dep Hd) as Hd'.
  destruct (N.eq_dec (vv v + dep) (cv v)) as [E|E]; [now rewrite validate_eq|].
  rewrite validate_ne in * by exact E. split; [intros H; discriminate H|]. split; [constructor|].
  split; [exact Hd'|exact Hk].
Qed.

Lemma compute_tagged_spec compressed src dep mf cap serial (v : vec tout) :
  let v' := fst (compute_tagged m compressed src dep mf cap serial v) in
  cv v' = vv v + dep /\ (tinv v -> tinv v') /\
  exists outs, Forall (fun x => snd x = (vv v + dep, serial)) outs /\
    contents v' = firstn mf (contents (validate compressed v dep)) ++ outs.
Proof.
  unfold compute_tagged, compute_call.
  set (t := (vv v + dep, serial)). set (v2 := truncate_if_needed (validate compressed v dep) mf).
  destruct (repeat_loop (tagm m t) src cap _ None v2) as [v' r] eqn:E. cbn [fst].
  pose (J := fun (_ : option St) (x : vec tout) =>
    cv x = vv v + dep /\ (tinv v -> tinv x) /\
    exists outs, Forall (fun y => snd y = t) outs /\ contents x = contents v2 ++ outs).
  destruct (loop_inv (tagm m t) src cap J (fun _ => True)) with (5 := E)
    as [(_ & A & B & outs & HF & Hc) _].
  - (* a batch pushes elements tagged t *)
    intros c0 x x' c1 r1 (Hcv & HT & outs & HF & Hc) Eb.
    destruct (batch_shape _ _ _ _ _ _ _ _ Eb) as (os & -> & Hos). split; [|auto].
    assert (HF' : Forall (fun y => snd y = t) os).
    { destruct Hos as [[-> _]|(st & rs & _ & _ & Hs & _)]; [constructor|].
      eapply steps_Forall; [apply tagm_step_tag|exact Hs]. }
    split; [exact Hcv|]. split.
    + intros T. apply push_tinv; [auto|]. cbn [hand_push cv]. rewrite Hcv. revert HF'.
      apply Forall_impl. intros y Hy. exact (f_equal fst Hy).
    + exists (outs ++ os). split; [apply Forall_app; auto|]. now rewrite contents_hand_push, Hc, app_assoc.
  - intros c0 x (Hcv & HT & Hex). split; [now rewrite write_cv|].
    split; [intros T; apply write_tinv; auto|now rewrite write_contents].
  - auto.
  - split; [unfold v2; rewrite truncate_eq; apply validate_cv|].
    split; [intros T; apply truncate_tinv, validate_tinv, T|].
    exists []. split; [constructor|now rewrite app_nil_r].
  - split; [exact A|]. split; [exact B|]. exists outs. split; [exact HF|].
    rewrite Hc. unfold v2. now rewrite truncate_contents.
Qed.

(* C19_discard: presented version differs from the recorded one => nothing older survives *)
Theorem discard compressed src dep mf cap serial (v : vec tout) :
  vv v + dep <> cv v ->
  let v' := fst (compute_tagged m compressed src dep mf cap serial v) in
  Forall (fun x => snd x = (vv v + dep, serial)) (contents v') /\ cv v' = vv v + dep.
Proof.
  intros Hne. destruct (compute_tagged_spec compressed src dep mf cap serial v) as (Hcv & _ & outs & HF & Hc).
  cbv zeta. split; [|exact Hcv]. rewrite Hc, validate_ne by exact Hne. now rewrite firstn_nil.
Qed.

(* C19_no_recompute: presented version equal to the recorded one => the elements below
   min(max_from, length) are neither altered nor re-evaluated (an element evaluated by this call
   would carry this call's serial) *)
Theorem no_recompute compressed src dep mf cap serial (v : vec tout) :
  vv v + dep = cv v ->
  let v' := fst (compute_tagged m compressed src dep mf cap serial v) in
  firstn (Nat.min mf (vlen v)) (contents v') = firstn (Nat.min mf (vlen v)) (contents v) /\ cv v' = cv v.
Proof.
  intros He. destruct (compute_tagged_spec compressed src dep mf cap serial v) as (Hcv & _ & outs & HF & Hc).
  cbv zeta. split; [|congruence]. rewrite Hc, validate_eq by exact He.
  rewrite <- contents_length, firstn_app_le, firstn_firstn by (rewrite firstn_length; lia). f_equal. lia.
Qed.

(* a state that holds results only in the pushed buffer (nothing stored yet): the instance of
   [discard] that a reset conditional on stored_len() != 0 would break *)
Theorem discard_unwritten compressed src dep mf cap serial (v : vec tout) :
  stored v = [] -> pushed v <> [] -> vv v + dep <> cv v ->
  let v' := fst (compute_tagged m compressed src dep mf cap serial v) in
  Forall (fun x => snd x = (vv v + dep, serial)) (contents v') /\ cv v' = vv v + dep.
Proof. intros _ _. apply discard. Qed.

End C19.

Section C19Hist.
Context {Src St Out : Type}.
Variable m : method Src St Out.
Notation tout := (@tout Out).

Definition vinit (own : N) : @vstate Out := (new_vec own, O).

Lemma tinv_new own : tinv (new_vec own : vec tout).
Proof.
  split; [intros _; reflexivity|]. split; [constructor|]. split; [apply new_vec_dinv|constructor].
Qed.

Lemma vapply_tinv compressed s o : tinv (fst s) -> tinv (fst (vapply m compressed s o)).
Proof.
  intros HT. destruct o as [src dep mf cap fail|os| | |own]; cbn [vapply fst].
  - exact (proj1 (proj2 (compute_tagged_spec _ compressed src dep mf cap _ _)) HT).
  - apply push_tinv; [exact HT|]. apply Forall_map, Forall_forall. reflexivity.
  - now apply write_tinv.
  - apply reimport_tinv. now apply write_tinv.
  - destruct (own =? vv (write (fst s))); cbn [fst]; [apply reimport_tinv; now apply write_tinv|apply tinv_new].
Qed.

Lemma vrun_tinv compressed h own : tinv (fst (vrun m compressed h (vinit own))).
Proof.
  generalize (tinv_new own : tinv (fst (vinit own))). generalize (vinit own).
  induction h as [|o t IH]; intros s Hs; [exact Hs|].
  cbn [vrun fold_left]. apply IH. now apply vapply_tinv.
Qed.

(* C19_no_mix (both formats) *)
Theorem no_mix compressed h own :
  let v := fst (vrun m compressed h (vinit own)) in
  Forall (fun x => tver x = cv v) (contents v) /\ Forall (fun x => tver x = disk_cv v) (disk v).
Proof. intros v. destruct (vrun_tinv compressed h own) as (_ & Hm & [_ Hk]). split; assumption. Qed.

(* C19_persist (both formats): `hdr_ok` after any history, so the recorded version survives write and
   flush + re-import *)
Theorem persist compressed h own :
  let v := fst (vrun m compressed h (vinit own)) in
  cv (write v) = cv v /\ cv (reimport (write v)) = cv v.
Proof.
  intros v. destruct (vrun_tinv compressed h own) as (Hh & _ & [Hd _]). fold v in Hh, Hd.
  split; [apply write_cv|]. rewrite write_eq by exact Hd. now apply hdr_ok_dcv.
Qed.

End C19Hist.
