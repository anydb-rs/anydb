(* resume_ok and causality for the method families, and the instances of the driver theorem.
   Causality always comes from locality (same target, initial state and steps below d: `local`,
   `local_causal`; for a method whose step reads the sources where its state points, `local_on` the
   states of the from-scratch run, which a `run_inv` describes: `run_inv_causal`); resume_ok is proved
   per family.  `closed id` singles out the methods for which these lemmas suffice, with no
   precondition on the sources: `C06_closed_methods`.  A theorem `x_closed` is the instance for method
   x, whether or not `closed` holds of x.  `compressed_reimport_regression` is a history of the driver
   (run with `m_to`, hence here). *)
From Anydb Require Import Common.Base Eager.EDriver Eager.EDriverProofs Eager.EFamilies.

(* a source that one of a, b lacks counts as empty *)
Definition agree_srcs (d : nat) (a b : srcs) : Prop :=
  par a = par b /\ forall j, firstn d (sn a j) = firstn d (sn b j).

Lemma nth_firstn_lt {A} (l : list A) d i x : (i < d)%nat -> nth i (firstn d l) x = nth i l x.
Proof.
  revert d i. induction l as [|h t IH]; intros d i Hi.
  - rewrite firstn_nil. reflexivity.
  - destruct d; [lia|]. destruct i; cbn; [reflexivity|]. apply IH. lia.
Qed.

Lemma at_firstn la lb d i : firstn d la = firstn d lb -> (i < d)%nat -> at_ la i = at_ lb i.
Proof.
  intros H Hi. unfold at_. rewrite <- (nth_firstn_lt la d), <- (nth_firstn_lt lb d) by exact Hi. now rewrite H.
Qed.

Lemma agree_at d a b j i : agree_srcs d a b -> (i < d)%nat -> at_ (sn a j) i = at_ (sn b j) i.
Proof. intros [_ H]. apply at_firstn, H. Qed.

Lemma agree_slen d a b j : agree_srcs d a b -> Nat.min d (slen a j) = Nat.min d (slen b j).
Proof.
  intros [_ H]. unfold slen. rewrite <- !firstn_length. now rewrite H.
Qed.

Lemma agree_par d a b : agree_srcs d a b -> par a = par b.
Proof. now intros [H _]. Qed.

Lemma agree_refl d a : agree_srcs d a a.
Proof. split; reflexivity. Qed.
Lemma agree_zero a b : par a = par b -> agree_srcs 0 a b.
Proof. intros H. split; [exact H|reflexivity]. Qed.

Lemma min_min d x y x' y' :
  Nat.min d x = Nat.min d x' -> Nat.min d y = Nat.min d y' -> Nat.min d (Nat.min x y) = Nat.min d (Nat.min x' y').
Proof. lia. Qed.

Lemma ltb_agree d x y k : Nat.min d x = Nat.min d y -> (k < d)%nat -> Nat.ltb k x = Nat.ltb k y.
Proof. intros H Hk. destruct (Nat.ltb_spec k x), (Nat.ltb_spec k y); try reflexivity; lia. Qed.

(* What is known of the from-scratch run over admissible sources: Inv src j st os holds of the state st
   and the outputs os with which the run reaches index j.  Stated once per method, it is read twice: for
   resume_ok, where recover has to recompute the state it describes (`run_inv_at`), and for causality,
   where the steps need only agree on the states it allows (`local_on`, `run_inv_causal`). *)
Section RunInv.
Context {St : Type}.
Variable m : method srcs St N.
Variable D : srcs -> Prop.
Variable Inv : srcs -> nat -> St -> list N -> Prop.

Definition run_inv : Prop :=
  (forall src st0, D src -> recover m src [] 0 None = Ok st0 -> Inv src 0%nat st0 []) /\
  (forall src j st os st' o, D src -> (j < target m src)%nat -> Inv src j st os ->
     step m src st j = Ok (st', o) -> Inv src (S j) st' (os ++ [o])).

Lemma run_inv_at src k st outs :
  run_inv -> D src -> (k <= target m src)%nat -> scratch_run m src k = Ok (st, outs) ->
  Inv src k st outs /\ length outs = k.
Proof.
  intros [H0 HS] HD Hk H. apply (scratch_run_state m (Inv src) src k st outs H).
  - intros st0. now apply H0.
  - intros j s os s' o Hj. apply HS; [exact HD|lia].
Qed.

Definition local_on : Prop :=
  forall d a b, D a -> D b -> agree_srcs d a b ->
    Nat.min d (target m a) = Nat.min d (target m b) /\
    ((0 < d)%nat -> recover m a [] 0 None = recover m b [] 0 None) /\
    (forall i st os, (i < d)%nat -> Inv b i st os -> step m a st i = step m b st i).

Lemma run_inv_steps d a b :
  run_inv -> D b ->
  (forall i st os, (i < d)%nat -> Inv b i st os -> step m a st i = step m b st i) ->
  forall n st i os, (i + n <= d)%nat -> (i + n <= target m b)%nat -> Inv b i st os ->
    steps m a st i n = steps m b st i n.
Proof.
  intros [_ HS] Db H. induction n as [|n IH]; intros st i os Hi Ht Hinv; [reflexivity|].
  rewrite !steps_S. rewrite (H i st os) by (lia || assumption).
  destruct (step m b st i) as [[st' o]| |] eqn:E; try reflexivity.
  rewrite (IH st' (S i) (os ++ [o])); [reflexivity|lia|lia|]. apply (HS b i st); auto. lia.
Qed.

Lemma run_inv_causal : run_inv -> local_on -> causal_on m agree_srcs D.
Proof.
  intros R L d a b Da Db Ha. destruct (L d a b Da Db Ha) as (Ht & Hr & Hs). split; [exact Ht|].
  (* k <= target a and the equal targets below d put the whole run over b below its own target *)
  intros k Hk Hka Hpos. unfold scratch_run. rewrite Hr by lia.
  destruct (recover m b [] 0 None) as [st0| |] eqn:E; try reflexivity. cbn [bind].
  rewrite (run_inv_steps d a b R Db Hs k st0 0%nat []); [reflexivity|lia|lia|]. now apply (proj1 R).
Qed.
End RunInv.

Definition local {St} (m : method srcs St N) (D : srcs -> Prop) : Prop := local_on m D (fun _ _ _ _ => True).

Lemma local_causal {St} (m : method srcs St N) D : local m D -> causal_on m agree_srcs D.
Proof. apply run_inv_causal. split; auto. Qed.

Lemma stateless_resume_ok tgt f D : resume_ok_on (stateless tgt f) D.
Proof. intros src k [] outs _ _ _. split; reflexivity. Qed.

Lemma stateless_local tgt f (D : srcs -> Prop) :
  (forall d a b, agree_srcs d a b -> Nat.min d (tgt a) = Nat.min d (tgt b)) ->
  (forall d a b i, D b -> agree_srcs d a b -> (i < d)%nat -> f a i = f b i) ->
  local (stateless tgt f) D.
Proof.
  intros Ht Hf d a b _ Db Ha. split; [apply Ht; exact Ha|]. split; [reflexivity|].
  intros i st os Hi _. cbn. now rewrite (Hf d a b i Db Ha Hi).
Qed.

Lemma prev_out_last init outs : prev_out init outs (length outs) = last outs init.
Proof.
  destruct outs as [|x t] using rev_ind; [reflexivity|].
  rewrite last_last, app_length, Nat.add_comm. apply nth_middle.
Qed.

Lemma running_resume_ok tgt init upd keep D : resume_ok_on (running tgt init upd keep) D.
Proof.
  intros src k st outs _ H _.
  destruct (scratch_run_state _ (fun _ s os => s = last os (init src)) _ _ _ _ H) as [-> <-].
  - now intros st0 [= <-].
  - intros j s os s' o _ _ Hs. cbn in Hs. destruct (upd src s j); cbn in Hs; inversion Hs. now rewrite last_last.
  - cbn. rewrite prev_out_last. split; [reflexivity|]. now destruct keep.
Qed.

Lemma running_local tgt init upd keep D :
  (forall d a b, agree_srcs d a b -> Nat.min d (tgt a) = Nat.min d (tgt b)) ->
  (forall d a b, agree_srcs d a b -> (0 < d)%nat -> init a = init b) ->
  (forall d a b i st, agree_srcs d a b -> (i < d)%nat -> upd a st i = upd b st i) ->
  local (running tgt init upd keep) D.
Proof.
  intros Ht Hi Hu d a b _ _ Ha. split; [apply Ht; exact Ha|]. split.
  - intros Hd. cbn. now rewrite (Hi d a b Ha Hd).
  - intros i st os Hlt _. cbn. now rewrite (Hu d a b i st Ha Hlt).
Qed.

Lemma tgt1_min d a b : agree_srcs d a b -> Nat.min d (tgt1 a) = Nat.min d (tgt1 b).
Proof. apply agree_slen. Qed.
Lemma tgt2_min d a b : agree_srcs d a b -> Nat.min d (tgt2 a) = Nat.min d (tgt2 b).
Proof. intros H. apply min_min; now apply agree_slen. Qed.
Lemma tgt3_min d a b : agree_srcs d a b -> Nat.min d (tgt3 a) = Nat.min d (tgt3 b).
Proof. intros H. apply min_min; [now apply tgt2_min|now apply agree_slen]. Qed.
Lemma tgt4_min d a b : agree_srcs d a b -> Nat.min d (tgt4 a) = Nat.min d (tgt4 b).
Proof. intros H. apply min_min; [now apply tgt3_min|now apply agree_slen]. Qed.
Lemma tgt_others_min d a b : agree_srcs d a b -> Nat.min d (tgt_others a) = Nat.min d (tgt_others b).
Proof.
  intros H. unfold tgt_others, nothers. rewrite (agree_par d a b H).
  destruct (par b <=? 1); [now apply tgt1_min|]. destruct (par b =? 2); [now apply tgt2_min|now apply tgt3_min].
Qed.
#[local] Hint Resolve tgt1_min tgt2_min tgt3_min tgt4_min tgt_others_min : tgt.

(* The second premise of stateless_local / the third of running_local for a closure that reads nothing but
   `par` and the sources at indices <= i: both sides become equal by `agree_par` / `agree_at`.  A closure that
   reads anything else makes the final `reflexivity` fail; in closed_local the error then names the whole
   `destruct id; …` line: run the method's case alone (`apply stateless_local; [auto with tgt|]`) to see the
   equation that is left. *)
Ltac loc := intros d a b i ? Ha Hi; cbv beta;
  rewrite ?(agree_par d a b Ha), ?(fun j k => agree_at d a b j k Ha) by (unfold ni; lia); reflexivity.

Definition closed (id : mid) : bool :=
  match id with
  | Matl_ex | Mlookback | Msum | Mmax | Mmin | Mrolling_sum | Mrolling_max_fs | Mrolling_min_fs
  | Msum_fi | Mfsum_fi | Mcount_fi | Mfcount_fi | Mindirect => false
  | _ => true
  end.

Lemma others_at_local d a b i : agree_srcs d a b -> (i < d)%nat -> others_at a i = others_at b i.
Proof.
  intros Ha Hi. unfold others_at, nothers. rewrite (agree_par d a b Ha).
  apply map_ext. intros j. now apply (agree_at d a b j i Ha).
Qed.

(* How the locality of a closed method is shown: its closure reads the sources at the index it evaluates
   (also `change`, whose lookback index lies below it); or through `others_at`; or it is `running`, from a
   constant or from the first source value.  A method added to `mid` is Pointwise until it is listed here,
   and closed unless `closed` says otherwise. *)
Inductive shape := Pointwise | OfOthers | Running.
Definition shape_of (id : mid) : shape :=
  match id with
  | Msum_of_others | Mmin_of_others | Mmax_of_others => OfOthers
  | Mcumulative | Mcum_binary | Mcum_tbinary | Mcum_count | Mcum_count_from | Math | Matl | Math_from | Matl_from
  | Mrolling_count => Running
  | _ => Pointwise
  end.

Lemma closed_local id : closed id = true -> with_method id (fun St m => local m (fun _ => True)).
Proof.
  intros Hc. destruct (shape_of id) eqn:Hs.
  - destruct id; try discriminate Hc; try discriminate Hs; cbn [with_method];
      (apply stateless_local; [auto with tgt|loc]).
  - destruct id; try discriminate Hs; cbn [with_method];
      (apply stateless_local; [auto with tgt|]); intros d a b i _ Ha Hi; cbv beta;
      now rewrite (others_at_local d a b i Ha Hi).
  - destruct id; try discriminate Hs; cbn [with_method];
      (apply running_local; [auto with tgt| |loc]); intros d a b Ha Hd; cbv beta;
      now rewrite ?(agree_at d a b 0 0 Ha Hd).
Qed.

Theorem closed_resume_ok_causal id : closed id = true ->
  with_method id (fun St m => resume_ok m /\ causal m agree_srcs).
Proof.
  intros Hc. pose proof (closed_local id Hc) as L.
  destruct id; try discriminate Hc; cbn [with_method] in *;
    (split; [first [apply stateless_resume_ok | apply running_resume_ok]|exact (local_causal _ _ L)]).
Qed.

Lemma lookback_resume_ok : resume_ok m_lookback.
Proof. apply stateless_resume_ok. Qed.

(* compute_lookback: window starts never point forward (documented precondition) *)
Definition starts_ok (s : srcs) : Prop := forall i, (i < slen s 1)%nat -> (N.to_nat (at_ (sn s 1) i) <= i)%nat.

Lemma start_le s i : starts_ok s -> (N.to_nat (at_ (sn s 1) i) <= i)%nat.
Proof.
  intros H. destruct (Nat.lt_ge_cases i (slen s 1)) as [Hlt|Hge]; [now apply H|].
  unfold at_, slen in *. rewrite nth_overflow by lia. cbn. lia.
Qed.

Lemma lookback_local : local m_lookback starts_ok.
Proof.
  apply stateless_local; [apply tgt2_min|]. intros d a b i Db Ha Hi. cbv beta zeta.
  rewrite (agree_at d a b 1 i Ha Hi).
  pose proof (start_le b i Db) as Hle. set (k := N.to_nat (at_ (sn b 1) i)) in *.
  rewrite (agree_at d a b 0 k Ha), (ltb_agree d _ _ k (agree_slen d a b 0 Ha)) by lia. reflexivity.
Qed.

Theorem lookback_closed :
  resume_ok_on m_lookback starts_ok /\ causal_on m_lookback agree_srcs starts_ok /\
  forall compressed h own, valid m_lookback agree_srcs compressed (new_vec own, None) h -> in_dom starts_ok h ->
    C06_conclusion m_lookback (run_hist m_lookback compressed h (new_vec own, None)).
Proof. apply C06_closed_on; [apply stateless_resume_ok|apply local_causal, lookback_local]. Qed.

Definition atl_src : srcs := ([[5; 0; 3]], 0).
Definition atl_src0 : srcs := ([[5; 0]], 0).

Lemma atl_ex_resume_refuted : ~ resume_ok m_atl_ex.
Proof.
  intros H. destruct (H atl_src 2%nat 5 [5; 0] I eq_refl ltac:(cbn; lia)) as [H1 _].
  specialize (H1 ltac:(lia)). vm_compute in H1. discriminate H1.
Qed.

Lemma agree_atl : agree_srcs 2 atl_src0 atl_src.
Proof. split; [reflexivity|]. intros [|[|j]]; reflexivity. Qed.

Definition atl_hist : list (op srcs) := [OCompute atl_src0 0 0 1; OCompute atl_src 0 2 1].

(* source [5,0] computed, then the source grows to [5,0,3] and the call resumes at index 2
   (max_from = 2 = first changed index): the result is [5,0,0], a from-scratch run gives [5,0,3] *)
Theorem atl_ex_refuted :
  exists h, valid m_atl_ex agree_srcs false (new_vec 0, None) h /\
    let s := run_hist m_atl_ex false h (new_vec 0, None) in
    snd s = Some (atl_src, Ok tt) /\ contents (fst s) = [5; 0; 0] /\ scratch m_atl_ex atl_src = Ok [5; 0; 3].
Proof.
  exists atl_hist. split.
  - cbn [valid atl_hist op_ok snd]. split; [split; [lia|exact I]|].
    split; [|exact I]. split; [lia|]. vm_compute apply_op. exact agree_atl.
  - vm_compute. auto.
Qed.

(* compute_all_time_low_(exclude_default = true) outside the class of known_findings.txt
   (c06-atl_ex-differs-from-scratch): sources without a default (zero) value.  Then the remembered value
   always equals the emitted one. *)
Definition nozero (s : srcs) : Prop := forall i, (i < slen s 0)%nat -> at_ (sn s 0) i <> 0.

Lemma atl_ex_resume_ok_nozero : resume_ok_on m_atl_ex nozero.
Proof.
  intros src k st outs Hnz H Hk. cbn [target m_atl_ex] in Hk. unfold tgt1 in Hk.
  destruct (scratch_run_state _ (fun _ s os => s <> 0 /\ s = last os (at_ (sn src 0) 0)) _ _ _ _ H) as [[_ ->] <-].
  - intros st0 [= <-]. split; [apply Hnz; lia|reflexivity].
  - intros j s os s' o Hj [Hs _] Hstep. cbn in Hstep.
    assert (He : N.min s (at_ (sn src 0) j) <> 0) by (pose proof (Hnz j); lia).
    apply N.eqb_neq in He. rewrite He in Hstep. injection Hstep as <- <-.
    rewrite last_last. split; [now apply N.eqb_neq|reflexivity].
  - cbn. rewrite prev_out_last. split; reflexivity.
Qed.

Lemma atl_ex_local D : local m_atl_ex D.
Proof.
  intros d a b _ _ Ha. split; [now apply tgt1_min|]. split.
  - intros Hd. cbn. now rewrite (agree_at d a b 0 0 Ha Hd).
  - intros i st os Hi _. cbn. now rewrite (agree_at d a b 0 i Ha Hi).
Qed.

Theorem atl_ex_outside_known_class :
  forall compressed h own, valid m_atl_ex agree_srcs compressed (new_vec own, None) h -> in_dom nozero h ->
    C06_conclusion m_atl_ex (run_hist m_atl_ex compressed h (new_vec own, None)).
Proof. apply C06_driver_on; [apply atl_ex_resume_ok_nozero|apply local_causal, atl_ex_local]. Qed.

Lemma atl_hist_in_known_class : ~ in_dom nozero atl_hist.
Proof. intros [H _]. apply (H 1%nat); [cbn; lia|reflexivity]. Qed.

Definition wsub (s : srcs) (k : nat) : nat := N.to_nat (ni k - par s).

(* compute_sum at index j: the running sum is the last output, the leaving cursor stands at j - window *)
Definition sum_state (src : srcs) (j : nat) (st : N * nat) (os : list N) : Prop := st = (last os 0, wsub src j).

Lemma sum_run : run_inv m_sum (fun _ => True) sum_state.
Proof.
  split; [now intros src st0 _ [= <-]|].
  intros src j [ps pos] os st' o _ _ [= -> ->] Hs. cbn [m_sum step] in Hs. unfold sum_state, wsub, ni in *.
  destruct (N.leb_spec (par src) (N.of_nat j)).
  - destruct (Nat.ltb _ _); [|discriminate]. destruct (_ <=? _); [|discriminate].
    injection Hs as <- <-. rewrite last_last. f_equal. lia.
  - injection Hs as <- <-. rewrite last_last. f_equal. lia.
Qed.

Lemma sum_resume_ok : resume_ok m_sum.
Proof.
  intros src k st outs _ H Hk. destruct (run_inv_at _ _ _ _ _ _ _ sum_run I (Nat.lt_le_incl _ _ Hk) H) as [-> <-].
  cbn [recover m_sum]. fold (wsub src (length outs)). rewrite prev_out_last, Nat.max_id. split; reflexivity.
Qed.

(* the leaving cursor never runs ahead of the index being evaluated, so a step below d reads below d *)
Lemma sum_local : local_on m_sum (fun _ => True) sum_state.
Proof.
  intros d a b _ _ Ha. split; [now apply tgt1_min|]. split.
  { intros _. cbn. now rewrite (agree_par d a b Ha). }
  intros i [ps pos] os Hi [= _ ->]. cbn [step m_sum].
  rewrite (agree_par d a b Ha), (agree_at d a b 0 i Ha Hi), (agree_at d a b 0 (wsub b i) Ha),
    (ltb_agree d _ _ (wsub b i) (agree_slen d a b 0 Ha)) by (unfold wsub, ni; lia). reflexivity.
Qed.

Theorem sum_closed :
  resume_ok m_sum /\ causal m_sum agree_srcs /\
  forall compressed h own, valid m_sum agree_srcs compressed (new_vec own, None) h ->
    C06_conclusion m_sum (run_hist m_sum compressed h (new_vec own, None)).
Proof. apply C06_closed_all; [apply sum_resume_ok|exact (run_inv_causal _ _ _ sum_run sum_local)]. Qed.

Definition C06_closed_statement : Prop :=
  forall id, closed id = true ->
  with_method id (fun St m =>
    resume_ok m /\ causal m agree_srcs /\
    forall compressed h own, valid m agree_srcs compressed (new_vec own, None) h ->
      C06_conclusion m (run_hist m compressed h (new_vec own, None))).

Lemma with_method_impl id (P Q : forall St, method srcs St N -> Prop) :
  (forall St m, P St m -> Q St m) -> with_method id P -> with_method id Q.
Proof. intros H. destruct id; apply H. Qed.

Theorem C06_closed_methods : C06_closed_statement.
Proof.
  intros id Hc. apply (with_method_impl id _ _ (fun St m H => C06_closed_all m agree_srcs (proj1 H) (proj2 H))).
  exact (closed_resume_ok_causal id Hc).
Qed.

(* the number of closed methods quoted in MANIFEST.json's text for C06; the five F7 methods, none of them
   closed, are not in the list *)
Example closed_count : length (filter closed
  [Mto; Mrange; Mfrom_index; Mtransform; Mtransform2; Mbinary; Mtransform3; Mtransform4; Madd; Msubtract;
   Mmultiply; Mdivide; Mpercentage; Mpercentage_diff; Msum_of_others; Mmin_of_others; Mmax_of_others;
   Mcumulative; Mcum_binary; Mcum_tbinary; Mcum_count; Mcum_count_from; Math; Matl; Matl_ex; Math_from;
   Matl_from; Mchange; Mlookback; Msum; Mrolling_count; Mmax; Mmin; Mrolling_sum; Mrolling_max_fs;
   Mrolling_min_fs]) = 28%nat.
Proof. reflexivity. Qed.

Definition pco_a : srcs := ([[1]], 0).
Definition pco_b : srcs := ([[]], 0).
Definition pco_hist : list (op srcs) :=
  [OCompute pco_a 1 0 5; OCompute pco_b 2 0 5; OReimport; OCompute pco_b 2 5 5].

(* The compressed write() returns early only when the page index has no pending change (EDriver.write,
   /repo commit faf2fd7).  A version change that leaves nothing to compute, then flush + re-import and a
   redundant call: the vector is empty under the new recorded version.  Were the early return taken on
   the pending reset, the re-import would bring the discarded [3] back. *)
Example compressed_reimport_regression :
  let s := run_hist m_to true pco_hist (new_vec 0, None) in
  snd s = Some (pco_b, Ok tt) /\ contents (fst s) = [] /\ scratch m_to pco_b = Ok [] /\ cv (fst s) = 2.
Proof. vm_compute. auto. Qed.
