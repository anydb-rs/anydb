(* C10 and the race part of C12 on the step model Conc/SrSteps.v.  Everything positive rests on
   `confined j foot s s'`: s' differs from s in no byte outside foot and in the placement of no slot
   but j.  Each primitive a step is composed of has its fact of that form (hint base `confined`),
   `tstep_confined` is one traversal of the step function, and the restricted statements
   (`punch_keeps_published`, `reader_partial`, `isolation_partial`) are read off it.  The full
   statements are REFUTED by concrete schedules, each evaluated once (`race_refuted`,
   `reader_refuted`, `isolation_refuted`, `inv_quiescent_refuted`). *)
From Anydb Require Import Common.Base Rawdb.AMap Rawdb.Alloc Rawdb.AllocInv
  Rawdb.CoverFacts Rawdb.AllocOutcome Rawdb.CompactFacts Rawdb.InvLayout
  Conc.SrSteps Conc.SrScen.

Definition keeps (s s' : st) (i : N) : Prop :=
  forall m, slot s i = Some m -> exists m', slot s' i = Some m' /\ place m' = place m.

(* the layout maps, the regions file and the file length may differ *)
Definition same_data (s s' : st) : Prop := slots s' = slots s /\ mem s' = mem s.

Lemma set_min_len_same s n : same_data s (set_min_len s n).
Proof. destruct (set_min_len_shape s n) as (fl & -> & _). split; reflexivity. Qed.

Lemma roc_same s a b s' :
  remove_or_compress_hole s a b = AOk s' \/ (exists e, remove_or_compress_hole s a b = AErr s' e) -> same_data s s'.
Proof. intros E. destruct (roc_shape _ _ _ _ E) as (H & Q & ->). split; reflexivity. Qed.

Lemma layout_remove_same s i m s' :
  layout_remove_region s i m = AOk s' \/ (exists e, layout_remove_region s i m = AErr s' e) -> same_data s s'.
Proof.
  unfold layout_remove_region. destruct (aget (r_start m) (s2r s)) as [j|]; [destruct (j =? i)|];
    intros [E|[e E]]; inversion E; split; reflexivity.
Qed.

Lemma layout_insert_same s a i s' : layout_insert_region s a i = Some s' -> same_data s s'.
Proof. unfold layout_insert_region. destruct (aget a (s2r s)); intros E; inversion E. split; reflexivity. Qed.

Lemma promote_same s : same_data s (promote s).
Proof. split; [apply promote_slots|apply promote_mem]. Qed.

Lemma keeps_slots_eq s s' i : slots s' = slots s -> keeps s s' i.
Proof. intros E m H. exists m. rewrite (slot_slots _ _ _ E). auto. Qed.

Lemma keeps_upd s j f i : j <> i \/ (forall m, place (f m) = place m) -> keeps s (upd s j f) i.
Proof.
  intros H m Hm. rewrite slot_upd. destruct (N.eqb_spec i j) as [->|Hne]; [|eauto].
  rewrite Hm. destruct H as [H|H]; [congruence|]. exists (f m). auto.
Qed.

Definition confined (j : option N) (foot : list (N * N)) (s s' : st) : Prop :=
  (forall a, covers_any foot a = false -> mem s' a = mem s a) /\ forall i, j <> Some i -> keeps s s' i.

Lemma confined_refl j foot s : confined j foot s s.
Proof. split; [reflexivity|]. intros i _ m Hm. eauto. Qed.

Lemma confined_trans j foot s1 s2 s3 : confined j foot s1 s2 -> confined j foot s2 s3 -> confined j foot s1 s3.
Proof.
  intros [M1 K1] [M2 K2]. split.
  - intros a Ha. rewrite (M2 a Ha). exact (M1 a Ha).
  - intros i Hi m H. destruct (K1 i Hi m H) as (m2 & H2 & P2). destruct (K2 i Hi m2 H2) as (m3 & H3 & P3).
    exists m3. split; [exact H3|congruence].
Qed.

Lemma covers_any_app l1 l2 a : covers_any (l1 ++ l2) a = covers_any l1 a || covers_any l2 a.
Proof. unfold covers_any. apply existsb_app. Qed.

Lemma confined_app_l j l1 l2 s s' : confined j l1 s s' -> confined j (l1 ++ l2) s s'.
Proof. intros [M K]. split; [|exact K]. intros a Ha. rewrite covers_any_app in Ha. exact (M a (proj1 (orb_false_elim _ _ Ha))). Qed.

Lemma confined_app_r j l1 l2 s s' : confined j l2 s s' -> confined j (l1 ++ l2) s s'.
Proof. intros [M K]. split; [|exact K]. intros a Ha. rewrite covers_any_app in Ha. exact (M a (proj2 (orb_false_elim _ _ Ha))). Qed.

(* the shapes in which a step extends the state s1 it has built so far *)
Lemma confined_keeps j foot s s1 s2 :
  mem s2 = mem s1 -> (forall i, j <> Some i -> keeps s1 s2 i) -> confined j foot s s1 -> confined j foot s s2.
Proof. intros Em K F. apply (confined_trans _ _ _ _ _ F). split; [|exact K]. intros a _. rewrite Em. reflexivity. Qed.

Lemma confined_same j foot s s1 s2 : same_data s1 s2 -> confined j foot s s1 -> confined j foot s s2.
Proof. intros [Es Em]. apply confined_keeps; [exact Em|]. intros i _. apply keeps_slots_eq. exact Es. Qed.

Lemma confined_upd_place j foot s s1 k f :
  (forall m, place (f m) = place m) -> confined j foot s s1 -> confined j foot s (upd s1 k f).
Proof. intros Hf. apply confined_keeps; [apply mem_upd|]. intros i _. apply keeps_upd. right. exact Hf. Qed.

Lemma confined_upd_target i foot s s1 f : confined (Some i) foot s s1 -> confined (Some i) foot s (upd s1 i f).
Proof. apply confined_keeps; [apply mem_upd|]. intros i' Hi. apply keeps_upd. left. congruence. Qed.

Lemma confined_put_target i foot s s1 x : confined (Some i) foot s s1 -> confined (Some i) foot s (put_slot s1 i x).
Proof.
  apply confined_keeps; [reflexivity|]. intros i' Hi m Hm. rewrite slot_put_slot.
  destruct (N.eqb_spec i' i); [congruence|eauto].
Qed.

Lemma confined_wid j foot s s1 k : confined j foot s s1 -> confined j foot s (write_if_dirty s1 k).
Proof.
  apply confined_keeps; [apply mem_wid|]. intros i _ m Hm. rewrite slot_wid.
  destruct (N.eqb_spec i k) as [->|Hne]; [|eauto].
  rewrite Hm. exists (fin m). split; [reflexivity|]. unfold fin. destruct (r_state m =? ST_WRITE); reflexivity.
Qed.

(* Regions::create takes the first free index, which holds no region *)
Lemma confined_create j foot s s1 id a s2 k : do_create s1 id a = Some (s2, k) -> confined j foot s s1 -> confined j foot s s2.
Proof.
  unfold do_create. destruct (layout_insert_region _ _ _) as [s4|] eqn:E; intros H; inversion H; subst.
  destruct (layout_insert_same _ _ _ _ E) as [Es Em]. apply confined_keeps; [exact Em|].
  intros i _ m Hm. exists m. split; [|reflexivity]. rewrite (slot_slots _ _ _ Es), slot_put_slot.
  destruct (N.eqb_spec i (first_free (slots s1) 0)) as [->|_]; [|exact Hm].
  rewrite slot_first_free in Hm. discriminate Hm.
Qed.

Lemma confined_set_resv j foot s s1 v : confined j foot s s1 -> confined j foot s (set_resv s1 v).
Proof. apply confined_same. split; reflexivity. Qed.
Lemma confined_set_rfile j foot s s1 v : confined j foot s s1 -> confined j foot s (set_rfile s1 v).
Proof. apply confined_same. split; reflexivity. Qed.

Lemma place_clear_dirty m : place (m_clear_dirty m) = place m.
Proof. unfold m_clear_dirty. destruct (m_is_dirty m); reflexivity. Qed.

Lemma covers_one e a : covers_any [e] a = covers e a.
Proof. apply orb_false_r. Qed.

Lemma confined_set_mem j e s m' :
  (forall a, covers e a = false -> m' a = mem s a) -> confined j [e] s (set_mem s m').
Proof.
  intros H. split; [|intros i _; apply keeps_slots_eq; reflexivity].
  intros a Ha. rewrite covers_one in Ha. exact (H a Ha).
Qed.

Lemma db_write_confined j s off f n s' : db_write s off f n = Some s' -> confined j [(off, n)] s s'.
Proof.
  unfold db_write. destruct (off + n <=? file_len s); intros E; inversion E.
  apply confined_set_mem. unfold covers, mem_write. cbn [fst snd]. intros a ->. reflexivity.
Qed.

Lemma copy_confined j s src dst n : confined j [(dst, n)] s (set_mem s (mem_copy (mem s) src dst n)).
Proof. apply confined_set_mem. unfold covers, mem_copy. cbn [fst snd]. intros a ->. reflexivity. Qed.

Lemma punch_confined j s a z : confined j [(a, z)] s (fst (punch s a z)).
Proof.
  unfold punch. destruct (approx_punchable s a z); [|apply confined_refl].
  apply confined_set_mem. unfold covers, mem_zero. cbn [fst snd]. intros x ->. reflexivity.
Qed.

Lemma punch_region_confined j s k : confined j (tail_of s k) s (fst (punch_region s k)).
Proof.
  unfold punch_region, tail_of. destruct (slot s k) as [m|]; [|apply confined_refl].
  cbn zeta. destruct (ceil_page (r_len m) <? r_reserved m); [apply punch_confined|apply confined_refl].
Qed.
Lemma punch_region_holes s k : holes (fst (punch_region s k)) = holes s.
Proof.
  unfold punch_region, punch. destruct (slot s k) as [m|]; [|reflexivity].
  cbn zeta. destruct (_ <? _); [destruct (approx_punchable _ _ _)|]; reflexivity.
Qed.

Lemma fst_let {A B C} (p : A * B) (f : B -> C) : fst (let '(a, b) := p in (a, f b)) = fst p.
Proof. destruct p; reflexivity. Qed.

Lemma punch_fold_confined j l : forall acc,
  confined j l (fst acc)
    (fst (fold_left (fun sn h => let '(s1, n1) := punch (fst sn) (fst h) (snd h) in (s1, snd sn + n1)) l acc)).
Proof.
  induction l as [|[a z] l IH]; intros acc; cbn [fold_left]; [apply confined_refl|].
  eapply confined_trans; [|apply (confined_app_r _ [(a, z)]), IH].
  rewrite fst_let. apply (confined_app_l _ [(a, z)]), punch_confined.
Qed.

Lemma punch_finish_confined j s t all p : confined j (holes s) s (fst (punch_finish s t all p)).
Proof.
  pose proof (punch_fold_confined j (holes s) (s, 0)) as H. unfold punch_finish, punch_holes_of.
  destruct (fold_left _ _ _) as [s1 n1]. destruct (0 <? p + n1); exact H.
Qed.

(* punch_holes, one region: its tail, then (after the last region) the holes, which the punch of
   a tail leaves as they are *)
Lemma punch_meta_confined j s k s1 n1 : punch_region s k = (s1, n1) -> confined j (tail_of s k ++ holes s) s s1.
Proof.
  intros E. replace s1 with (fst (punch_region s k)) by (rewrite E; reflexivity).
  apply confined_app_l, punch_region_confined.
Qed.

Lemma punch_meta_finish_confined j s k s1 n1 t all p :
  punch_region s k = (s1, n1) -> confined j (tail_of s k ++ holes s) s (fst (punch_finish s1 t all p)).
Proof.
  intros E. apply (confined_trans _ _ _ _ _ (punch_meta_confined j _ _ _ _ E)).
  apply confined_app_r. rewrite <- (punch_region_holes s k), E. apply punch_finish_confined.
Qed.

Create HintDb confined.
#[local] Hint Resolve confined_refl confined_upd_place confined_upd_target confined_put_target confined_wid confined_set_resv
  confined_set_rfile place_clear_dirty db_write_confined copy_confined punch_finish_confined punch_meta_confined
  punch_meta_finish_confined : confined.
(* these two leave the intermediate state to be found: tried after the others *)
#[local] Hint Resolve confined_same confined_create | 5 : confined.
#[local] Hint Resolve set_min_len_same roc_same layout_remove_same layout_insert_same promote_same : confined.

Ltac dmatch :=
  match goal with
  | |- context [match ?x with _ => _ end] => let E := fresh "E" in destruct x eqn:E
  end.

(* In every branch of every program point the new state is s extended by some of the shapes above.
   What a program point added to SrSteps.pc obliges for this script to go through unchanged: a line in
   SrScen.pc_target if its step changes the placement of a slot, a line in SrScen.wfoot if it writes the
   data map, and for every allocator primitive it calls that no step called before a hint in `confined`,
   either `same_data s (prim s …)` (slots and data map untouched) or `confined j foot s s1 -> confined j
   foot s (prim s1 …)`.  A goal that is left over shows its branch only through the equations E… that
   `dmatch` put in the context: the program point itself has been computed away. *)
Theorem tstep_confined s oc t : confined (pc_target (t_pc t)) (wfoot s t) s (fst (tstep s oc t)).
Proof.
  unfold wfoot, tstep. destruct (t_pc t); cbn [pc_target]; unfold begin_op;
    repeat dmatch; cbn [fst]; eauto 8 with confined.
Qed.

Theorem tstep_mem_frame s oc t a :
  covers_any (wfoot s t) a = false -> mem (fst (tstep s oc t)) a = mem s a.
Proof. apply tstep_confined. Qed.

Theorem tstep_place_frame s oc t i :
  pc_target (t_pc t) <> Some i -> keeps s (fst (tstep s oc t)) i.
Proof. apply tstep_confined. Qed.

Lemma gstep_spec g me g' :
  gstep g me = Some g' ->
  exists t, nth_error (g_th g) me = Some t /\ enabled g t = true /\
    g' = mkG (fst (tstep (g_st g) (others_clone (g_th g) me) t))
             (set_nth_t (g_th g) me (snd (tstep (g_st g) (others_clone (g_th g) me) t))).
Proof.
  unfold gstep. destruct (nth_error (g_th g) me) as [t|]; [|discriminate].
  destruct (t_finished t); [discriminate|]. destruct (enabled g t) eqn:En; [|discriminate]. cbn [negb].
  destruct (tstep _ _ t) eqn:E. intros [= <-]. exists t. rewrite E. auto.
Qed.

Theorem grun_mem_frame sched : forall g a, quiet_b g sched a = true -> mem (g_st (grun g sched)) a = mem (g_st g) a.
Proof.
  induction sched as [|me r IH]; intros g a H; [reflexivity|].
  unfold grun in *. cbn [fold_left]. cbn [quiet_b] in H.
  destruct (gstep g me) as [g'|] eqn:E; [|exact (IH g a H)].
  destruct (gstep_spec _ _ _ E) as (t & Et & _ & ->). rewrite Et in H.
  apply andb_true_iff in H as [Hc Hq]. apply negb_true_iff in Hc.
  rewrite (IH _ a Hq). apply tstep_mem_frame, Hc.
Qed.

(* C12, race part; in EVERY state, whatever the other threads are doing *)
Theorem punch_region_safe s i m a :
  slot s i = Some m ->
  a < r_start m + ceil_page (r_len m) \/ r_start m + r_reserved m <= a ->
  mem (fst (punch_region s i)) a = mem s a.
Proof.
  intros Hs Ha. apply (punch_region_confined None). unfold tail_of. rewrite Hs. cbn zeta.
  destruct (ceil_page (r_len m) <? r_reserved m) eqn:E; [|reflexivity].
  rewrite covers_one. unfold covers. cbn [fst snd]. lia.
Qed.

Theorem punch_keeps_published s i m k :
  slot s i = Some m -> k < r_len m -> mem (fst (punch_region s i)) (r_start m + k) = mem s (r_start m + k).
Proof.
  intros Hs Hk. apply (punch_region_safe s i m); [exact Hs|]. left. pose proof (ceil_page_ge (r_len m)). lia.
Qed.

(* the race window: data copied by write_with's fits path but not yet published survives the
   punch if it ends at or below ceil_page(old length) *)
Theorem punch_keeps_unpublished_same_page s i m w k :
  slot s i = Some m -> w_start w = r_start m -> w_len w = r_len m ->
  w_wo w + w_n w <= ceil_page (r_len m) -> k < w_n w ->
  mem (fst (punch_region s i)) (w_start w + w_wo w + k) = mem s (w_start w + w_wo w + k).
Proof.
  intros Hs Hst Hl Hfit Hk. apply (punch_region_safe s i m); [exact Hs|]. left. lia.
Qed.

(* C12 race: len 10 / reserve 8192; the writer copies 5000 bytes and is held before its length
   update; compact's punch_holes reads len 10 and punches [4096, 8192); the byte at 4096 is 0 *)
Lemma race_run :
  let s := run (init 0) race_pre in
  let m := match slot s 0 with Some m => m | None => mkR 0 0 0 0 0 0 0 end in
  let g := grun (mkG s [mk_thread [TWrite 1 (gb 2) 5000 None false] [(1, 0)]; mk_thread [TCompact] []]) race_sched in
  slot s 0 = Some m /\ r_id m = 1 /\ (r_len m + 5000 <=? r_reserved m) = true /\ all_finished g = true /\
  (mem (g_st g) (r_start m + r_len m + 4086) =? gb 2 4086) = false.
Proof. vm_compute. repeat split. Qed.

Theorem race_refuted : ~ race_stmt.
Proof.
  intro H. pose proof race_run as R. cbv zeta in R. destruct R as (P1 & P2 & P3 & P4 & E).
  apply N.eqb_neq in E. apply E, H; [exact P1|exact P2|exact P3|exact P4|reflexivity].
Qed.

(* C10 reader: the reader of region 1 (slot 0, at offset 0, 100 bytes) is held while region 1
   relocates, flush promotes the old extent, region 4 is created there and written *)
Lemma reader_run :
  let g1 := grun (ginit reader_cfg) reader_sched1 in
  let g2 := grun g1 reader_sched2 in
  wf_cfg reader_cfg = true /\ reader_of g1 0 = Some (0, 0, 100) /\ snapshot_current g1 0 0 100 = true /\
  reader_of g2 0 = Some (0, 0, 100) /\ held_along g1 reader_sched2 0 0 (mem (g_st g2) (0 + 0)) = false.
Proof. vm_compute. repeat split. Qed.

Theorem reader_refuted : ~ reader_stmt.
Proof.
  intro H. pose proof reader_run as R. cbv zeta in R. destruct R as (P1 & P2 & P3 & P4 & E).
  exact (eq_true_false_abs _ (H reader_cfg reader_sched1 reader_sched2 0%nat 0 0 100 0 P1 P2 P3 P4 eq_refl) E).
Qed.

(* C10 isolation: thread 0 creates region 4 and writes 10 bytes; alone both succeed; with a
   relocation to the end of the file between its file-length check and its allocation the
   region starts AT the end of the file and the write panics *)
Lemma beyond_run :
  let g := grun (ginit beyond_cfg) beyond_sched in
  let ga := grun (thread_alone beyond_cfg 0) (repeat O 100) in
  let th := nth 0 (g_th g) (mk_thread [] []) in
  let tha := nth 0 (g_th ga) (mk_thread [] []) in
  wf_cfg beyond_cfg = true /\
  (all_finished g = true /\ nth_error (g_th g) 0 = Some th /\
   nth_error (g_th ga) 0 = Some tha /\ t_finished tha = true /\
   all2 res_agree (t_results th) (t_results tha) = false) /\
  (quiescent_b g = true /\ (layout_len (g_st g) <=? file_len (g_st g)) = false).
Proof. vm_compute. repeat split. Qed.

Theorem isolation_refuted : ~ isolation_stmt.
Proof.
  intro H. pose proof beyond_run as R. cbv zeta in R. destruct R as (Hwf & (Hfin & Hth & Htha & Hfa & E) & _).
  destruct (H beyond_cfg beyond_sched 0%nat _ _ Hwf Hfin Hth eq_refl 100%nat _ Htha Hfa) as [E' _].
  exact (eq_true_false_abs _ E' E).
Qed.

(* … and the owner's remove is refused while flush holds a clone of the region *)
Theorem isolation_refuted_remove :
  exists (c : cfg) sched t th tha,
    wf_cfg c = true /\ all_finished (grun (ginit c) sched) = true /\
    nth_error (g_th (grun (ginit c) sched)) t = Some th /\
    nth_error (g_th (grun (thread_alone c t) (repeat O 100))) O = Some tha /\ t_finished tha = true /\
    all2 res_agree (t_results th) (t_results tha) = false.
Proof.
  exists remove_cfg, remove_sched, 0%nat, (nth 0 (g_th (grun (ginit remove_cfg) remove_sched)) (mk_thread [] [])),
    (nth 0 (g_th (grun (thread_alone remove_cfg 0) (repeat O 100))) (mk_thread [] [])).
  vm_compute. repeat split.
Qed.

Lemma quiescent_b_sound g : quiescent_b g = true -> quiescent g.
Proof.
  unfold quiescent_b, quiescent. intros H t Ht. rewrite forallb_forall in H. specialize (H t Ht).
  destruct (t_pc t); try discriminate; reflexivity.
Qed.

(* C10 quiescent invariant: in the same schedule the layout ends beyond the file *)
Theorem inv_quiescent_refuted : ~ inv_quiescent_stmt.
Proof.
  intro H. pose proof beyond_run as R. cbv zeta in R. destruct R as (Hwf & _ & (Q & F)).
  apply N.leb_gt in F. apply N.lt_nge in F. apply F, inv_file, (H beyond_cfg beyond_sched Hwf), quiescent_b_sound, Q.
Qed.

(* C10 reader, restricted to schedules no step of which has the reader's byte in its write footprint *)
Theorem reader_partial :
  forall g1 sched2 i start ln k,
    snapshot_current g1 i start ln = true -> (k <? ln) = true ->
    quiet_b g1 sched2 (start + k) = true ->
    region_byte (g_st g1) i k = Some (mem (g_st (grun g1 sched2)) (start + k)).
Proof.
  intros g1 sched2 i start ln k Hs Hk Hq.
  rewrite (grun_mem_frame sched2 g1 (start + k) Hq).
  unfold snapshot_current in Hs. unfold region_byte. destruct (slot (g_st g1) i) as [m|]; [|discriminate].
  apply andb_true_iff in Hs. destruct Hs as [H1 H2].
  apply N.eqb_eq in H1. apply N.eqb_eq in H2. subst. rewrite Hk. reflexivity.
Qed.

Lemma held_along_here g sched i k b : region_has (g_st g) i k b = true -> held_along g sched i k b = true.
Proof. intros H. destruct sched; cbn [held_along]; rewrite H; reflexivity. Qed.

Corollary reader_partial_held :
  forall g1 sched2 i start ln k,
    snapshot_current g1 i start ln = true -> (k <? ln) = true ->
    quiet_b g1 sched2 (start + k) = true ->
    held_along g1 sched2 i k (mem (g_st (grun g1 sched2)) (start + k)) = true.
Proof.
  intros g1 sched2 i start ln k Hs Hk Hq. apply held_along_here.
  unfold region_has. rewrite (reader_partial g1 sched2 i start ln k Hs Hk Hq). apply N.eqb_refl.
Qed.

(* the side condition is satisfiable on a schedule with a relocation: without the flush the old
   extent stays pending and nothing is written into it *)
Example reader_partial_applies :
  let g1 := grun (ginit reader_cfg_noflush) reader_sched1 in
  snapshot_current g1 0 0 100 = true /\ quiet_b g1 reader_sched2 (0 + 99) = true
  /\ reader_of (grun g1 reader_sched2) 0 = Some (0, 0, 100).
Proof. vm_compute. repeat split. Qed.

Lemma foot_avoids_covers l start ln k :
  foot_avoids l start ln = true -> k < ln -> covers_any l (start + k) = false.
Proof.
  unfold foot_avoids, covers_any. induction l as [|e l IH]; intros H Hk; [reflexivity|].
  cbn [forallb existsb] in *. apply andb_true_iff in H. destruct H as [He Hl].
  rewrite (IH Hl Hk), orb_false_r. unfold ext_disjoint, covers in *. cbn [fst snd] in *. lia.
Qed.

Theorem isolation_step s oc t i m :
  pc_target (t_pc t) <> Some i -> slot s i = Some m ->
  foot_avoids (wfoot s t) (r_start m) (r_len m) = true ->
  (exists m', slot (fst (tstep s oc t)) i = Some m' /\ place m' = place m)
  /\ forall k, region_byte (fst (tstep s oc t)) i k = region_byte s i k.
Proof.
  intros Ht Hs Hf. destruct (tstep_confined s oc t) as [Hm Hk]. destruct (Hk i Ht m Hs) as (m' & Hs' & Hp).
  split; [exists m'; auto|]. intros k. unfold region_byte. rewrite Hs, Hs'.
  unfold place in Hp. inversion Hp as [[P1 P2 P3 P4]]. rewrite P1, P2.
  destruct (k <? r_len m) eqn:Ek; [|reflexivity].
  rewrite Hm; [reflexivity|]. apply foot_avoids_covers with (ln := r_len m); [exact Hf|lia].
Qed.

Theorem isolation_partial sched :
  forall g i m, slot (g_st g) i = Some m -> others_quiet_b g sched i = true ->
    (exists m', slot (g_st (grun g sched)) i = Some m' /\ place m' = place m)
    /\ forall k, region_byte (g_st (grun g sched)) i k = region_byte (g_st g) i k.
Proof.
  induction sched as [|me r IH]; intros g i m Hs H.
  - cbn. split; [exists m; auto|reflexivity].
  - unfold grun in *. cbn [fold_left]. cbn [others_quiet_b] in H.
    destruct (gstep g me) as [g'|] eqn:E; [|apply (IH g i m Hs H)].
    destruct (gstep_spec _ _ _ E) as (t & Et & _ & ->). rewrite Et, Hs in H.
    apply andb_true_iff in H as [[Htg Hf]%andb_true_iff Hq].
    assert (Ht : pc_target (t_pc t) <> Some i).
    { unfold targets_b in Htg. destruct (pc_target (t_pc t)) as [j|]; [|discriminate].
      apply negb_true_iff in Htg. apply N.eqb_neq in Htg. congruence. }
    destruct (isolation_step (g_st g) (others_clone (g_th g) me) t i m Ht Hs Hf) as [(m1 & Hs1 & Hp1) Hb].
    destruct (IH (mkG _ _) i m1 Hs1 Hq) as [(m2 & Hs2 & Hp2) Hb2].
    split; [exists m2; split; [exact Hs2|congruence]|].
    intros k. rewrite Hb2. apply Hb.
Qed.

(* satisfiable: over the whole create-beyond-file schedule (the relocation of region 2 by thread 1,
   the creation of region 4 and the write to it) region 1 (slot 0) is left alone *)
Example isolation_partial_applies :
  others_quiet_b (ginit beyond_cfg) beyond_sched 0 = true.
Proof. vm_compute. reflexivity. Qed.

(* The lock discipline of the step model: a step acquires nothing but the lock named by the label
   it is parked at (`tstep_pc_holds`), hence the four database-level locks are exclusive in every
   reachable state (`excl_all`).  This is not the lock model of C11
   (Conc/RwLock.v): `enabled` grants a lock whenever RwLock's semantics would and also lets a reader pass
   a waiting writer, and the lock programs of C11 come from the tap (Gen/LockSeqs.v): no lemma ties the
   pc_label sequence of an operation to its program in LockSeqs.P. *)
Definition grant (lb : label) (l : lk) : N :=
  match lb, l with
  | LLock KL w, KL | LLock KR w, KR | LLock KP w, KP | LLock KF w, KF => if w then 2 else 1
  | _, _ => 0
  end.

Lemma t_holds_finish t r l : t_holds (finish t r) l = match l, t_reader t with KP, Some _ => 1 | _, _ => 0 end.
Proof. unfold t_holds, finish. cbn. destruct l, (t_reader t); reflexivity. Qed.

(* Second conjunct: a Reader (the mmap read guard) appears only under the label mmap.read.  Every
   branch is closed by computation on the two tables SrSteps.pc_label and SrSteps.pc_holds: a program
   point added to SrSteps.pc needs its line in both (the acquisition it is parked at; the
   database-level locks held while parked there), and a branch that fails says that the successor is
   listed as holding a lock which neither the point held nor its label grants. *)
Lemma tstep_pc_holds s oc t l :
  (pc_holds (t_pc (snd (tstep s oc t))) l <=? N.max (pc_holds (t_pc t) l) (grant (t_label t) l)) = true
  /\ (t_reader (snd (tstep s oc t)) = t_reader t \/ t_reader (snd (tstep s oc t)) = None
      \/ grant (t_label t) KP = 1).
Proof.
  unfold tstep, t_label.
  destruct (t_pc t) eqn:Epc;
    unfold begin_op, flush_next_take, flush_after_collect, flush_return, punch_finish;
    repeat dmatch; cbn [snd]; (split; [|auto]);
    cbn [t_pc finish set_pc set_handles set_reader]; rewrite ?Epc; destruct l; reflexivity.
Qed.

Lemma pc_holds_le2 p l : pc_holds p l <= 2.
Proof. apply N.leb_le. destruct p, l; reflexivity. Qed.

Lemma t_holds_le2 t l : t_holds t l <= 2.
Proof. pose proof (pc_holds_le2 (t_pc t) l). unfold t_holds. destruct l, (t_reader t); lia. Qed.

Lemma tstep_t_holds s oc t l :
  t_holds (snd (tstep s oc t)) l <= N.max (t_holds t l) (grant (t_label t) l).
Proof.
  destruct (tstep_pc_holds s oc t l) as [Hp Hr]. apply N.leb_le in Hp. unfold t_holds.
  destruct l; try exact Hp.
  destruct (t_reader (snd (tstep s oc t))), (t_reader t); try lia.
  destruct Hr as [Hr|[Hr|Hr]]; [discriminate Hr..|lia].
Qed.

(* grant and t_holds: 1 shared, 2 exclusive *)
Lemma grant_free g t l u :
  enabled g t = true -> In u (g_th g) ->
  match grant (t_label t) l with 0 => True | 1 => t_holds u l <> 2 | _ => t_holds u l = 0 end.
Proof.
  unfold enabled, lock_free_for. destruct (t_label t) as [k|l0 w|w i|i|p]; try (intros; exact I).
  rewrite forallb_forall. intros H Hu. specialize (H u Hu).
  destruct l0, l; try exact I; (destruct w; cbn [grant];
    [apply N.eqb_eq in H|apply negb_true_iff, N.eqb_neq in H]; exact H).
Qed.

Lemma nth_error_set_nth_t l n x t : nth_error l n = Some t -> nth_error (set_nth_t l n x) n = Some x.
Proof. revert n; induction l; destruct n; cbn; intros; try discriminate; auto. Qed.

Lemma nth_error_set_nth_t_other l : forall n k x, n <> k -> nth_error (set_nth_t l n x) k = nth_error l k.
Proof. induction l as [|h l IH]; intros n k x H; destruct n, k; cbn; try congruence; try reflexivity. apply IH. congruence. Qed.

Definition excl (ths : list tstate) : Prop :=
  forall l i j ti tj, i <> j -> nth_error ths i = Some ti -> nth_error ths j = Some tj ->
    t_holds ti l = 2 -> t_holds tj l = 0.

Theorem excl_step g me g' : excl (g_th g) -> gstep g me = Some g' -> excl (g_th g').
Proof.
  intros Hex H. destruct (gstep_spec _ _ _ H) as (t & Et & En & ->). cbn [g_th].
  intros l i j ti tj Hij Hi Hj Hw.
  pose proof (tstep_t_holds (g_st g) (others_clone (g_th g) me) t l) as Hs.
  pose proof (t_holds_le2 t l) as H2.
  destruct (Nat.eq_dec i me) as [->|Hime].
  - (* the stepping thread holds l exclusively afterwards: it did before, or was granted it *)
    rewrite (nth_error_set_nth_t _ _ _ _ Et) in Hi. inversion Hi; subst ti.
    rewrite nth_error_set_nth_t_other in Hj by congruence.
    pose proof (grant_free g t l tj En (nth_error_In _ _ Hj)) as F.
    destruct (grant (t_label t) l) as [|[p|p|]]; try exact F; apply (Hex l me j t tj Hij Et Hj); lia.
  - rewrite nth_error_set_nth_t_other in Hi by congruence.
    destruct (Nat.eq_dec j me) as [->|Hjme]; [|rewrite nth_error_set_nth_t_other in Hj by congruence; eauto].
    (* another thread holds l exclusively: the stepping thread held nothing and is granted nothing *)
    rewrite (nth_error_set_nth_t _ _ _ _ Et) in Hj. inversion Hj; subst tj.
    pose proof (Hex l i me ti t Hij Hi Et Hw) as Hnone.
    pose proof (grant_free g t l ti En (nth_error_In _ _ Hi)) as F.
    destruct (grant (t_label t) l) as [|[p|p|]]; try contradiction; lia.
Qed.

Theorem excl_reachable g0 g : excl (g_th g0) -> reachable g0 g -> excl (g_th g).
Proof. intros H R. induction R as [|g me g' R IH S]; [exact H|]. eapply excl_step; eauto. Qed.

Lemma excl_init (c : cfg) : excl (g_th (ginit c)).
Proof.
  unfold ginit. cbn [g_th]. intros l i j ti tj _ Hi Hj _.
  apply nth_error_In in Hj. apply in_map_iff in Hj. destruct Hj as (ph & <- & _).
  unfold t_holds, mk_thread. cbn. destruct l; reflexivity.
Qed.

Theorem excl_all (c : cfg) g : reachable (ginit c) g -> excl (g_th g).
Proof. intros R. eapply excl_reachable; [apply excl_init|exact R]. Qed.
