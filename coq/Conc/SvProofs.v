(* C09 on the step models of Conc/SvSteps.v.
   Raw format: the full property (`raw_prefix`), for any number of readers, batch sizes and write()
   calls and any allocator answers that pass the freshness guard, by the invariant `Inv` over the
   step relation: with `rd_ok` a reader's snapshot points into an extent the vector still owns, with
   `phase_ok` the writer only ever writes behind the published length or into a fresh extent.
   Compressed format: `comp_prefix_full_stmt` is refuted by a run of the model (`comp_prefix_refuted`:
   the partial last page is rewritten in place before the pages lock is taken); the lengths part
   is proved (`comp_lens`). *)
From Anydb Require Import Common.Base Gen.Consts Gen.Sizes Conc.SvSteps.

(* `cbn` in the step proofs stops at the model's list and memory functions *)
Arguments hv : simpl never.
Arguments len : simpl never.
Arguments drop : simpl never.
Arguments take : simpl never.
Arguments mwrite : simpl never.
Arguments mcopy : simpl never.
Arguments mfill : simpl never.
Arguments raw_read : simpl never.
Arguments upd : simpl never.
Arguments ceil_page : simpl never.
Arguments grown_file_len : simpl never.
Arguments new_res : simpl never.

Ltac nums := unfold ESZ, HDR, HEADER_OFFSET, PAGE_SIZE, PAGE_SIZE_MINUS_1, GROW_FACTOR, GROW_FLOOR in *.

Lemma hv_app h v i : i < len h -> hv (h ++ [v]) i = hv h i.
Proof. unfold hv, len. intros H. apply app_nth1. lia. Qed.

Lemma hv_drop h k j : hv (drop k h) j = hv h (k + j).
Proof.
  unfold hv, drop. replace (N.to_nat (k + j)) with (N.to_nat k + N.to_nat j)%nat by lia.
  generalize (N.to_nat k) (N.to_nat j). clear. intros a b. revert h.
  induction a as [|a IH]; intros h; cbn [skipn Nat.add]; [reflexivity|].
  destruct h as [|x t]; cbn [nth]; [now destruct b | apply IH].
Qed.

Lemma mwrite_in m b vs k : k < len vs -> mwrite m b vs (b + ESZ * k) = CVal (hv vs k).
Proof.
  intros H. unfold mwrite. cbv zeta.
  replace ((b <=? b + ESZ * k) && (b + ESZ * k <? b + ESZ * len vs)) with true by (nums; lia).
  replace (b + ESZ * k - b) with (k * ESZ) by (nums; lia).
  rewrite N.mod_mul, N.div_mul by (nums; lia). reflexivity.
Qed.
Lemma mwrite_out m b vs a : a < b \/ b + ESZ * len vs <= a -> mwrite m b vs a = m a.
Proof. intros H. unfold mwrite. cbv zeta. replace ((b <=? a) && (a <? b + ESZ * len vs)) with false by lia. reflexivity. Qed.
Lemma mcopy_in m src dst n a : dst <= a -> a < dst + n -> mcopy m src dst n a = m (a - dst + src).
Proof. intros. unfold mcopy. replace ((dst <=? a) && (a <? dst + n)) with true by lia. reflexivity. Qed.
Lemma mcopy_out m src dst n a : a < dst \/ dst + n <= a -> mcopy m src dst n a = m a.
Proof. intros. unfold mcopy. replace ((dst <=? a) && (a <? dst + n)) with false by lia. reflexivity. Qed.

Lemma mfill_out m b n a : a < b \/ b + n <= a -> mfill m b n a = m a.
Proof. intros. unfold mfill. replace ((b <=? a) && (a <? b + n)) with false by lia. reflexivity. Qed.
Lemma mfill_in m b n a : b <= a -> a < b + n -> mfill m b n a = CNone.
Proof. intros. unfold mfill. replace ((b <=? a) && (a <? b + n)) with true by lia. reflexivity. Qed.

Lemma ceil_page_ge n : n <= ceil_page n.
Proof. unfold ceil_page. nums. lia. Qed.
Lemma grown_ge cur need : cur <= grown_file_len cur need.
Proof. unfold grown_file_len. pose proof (ceil_page_ge (N.max (N.max (ceil_page need) (cur * GROW_FACTOR)) GROW_FLOOR)). nums. lia. Qed.

Lemma disjb_spec a z b y : disjb a z b y = true <-> disj a z b y.
Proof. unfold disjb, disj. lia. Qed.

Definition slot (st i : N) : N := st + HDR + ESZ * i.
Arguments slot : simpl never.

Definition holds (m : mem) (st : N) (h : list N) (n : N) : Prop :=
  forall i, i < n -> m (slot st i) = CVal (hv h i).

Lemma mwrite_holds m st h k :
  k <= len h -> holds m st h k -> holds (mwrite m (st + (k * ESZ + HDR)) (drop k h)) st h (len h).
Proof.
  intros Hk H i Hi. destruct (N.ltb_spec i k).
  - rewrite mwrite_out by (unfold slot; nums; lia). apply H. assumption.
  - replace (slot st i) with (st + (k * ESZ + HDR) + ESZ * (i - k)) by (unfold slot; nums; lia).
    rewrite mwrite_in by (rewrite len_drop; lia). rewrite hv_drop. f_equal. f_equal. lia.
Qed.

Lemma holds_app m st h v n : n <= len h -> holds m st h n -> holds m st (h ++ [v]) n.
Proof. intros Hn H i Hi. rewrite hv_app by lia. exact (H i Hi). Qed.

Definition in_ext (a st z : N) : Prop := st <= a /\ a < st + z.
Definition own_bytes (s : rs_state) (a : N) : Prop :=
  in_ext a (r_start (rs_reg s)) (r_res (rs_reg s)) \/ exists st z, In (st, z) (rs_retired s) /\ in_ext a st z.

(* the bytes a reader may still look at *)
Definition published (s : rs_state) (a : N) : Prop :=
  in_ext a (r_start (rs_reg s)) (r_len (rs_reg s)) \/ exists st z, In (st, z) (rs_retired s) /\ in_ext a st z.

(* (st, ln) lies in an extent the vector still owns (vacated extents are not reused before a flush,
   and none happens inside write()) *)
Definition prot (reg : region) (ret : list (N * N)) (st ln : N) : Prop :=
  (st = r_start reg /\ ln <= r_res reg) \/ exists z, In (st, z) ret /\ ln <= z.

(* st + HDR <= rs_flen s: the panic test of raw_read *)
Definition rd_ok (s : rs_state) (x : rstate) : Prop :=
  match x with
  | RIdle => True
  | RLen l => l <= rs_slen s
  | RSnap l st ln | RGuard l st ln | RPages l st ln =>
      l <= rs_slen s /\ HDR + ESZ * l <= ln /\ st + HDR <= rs_flen s /\ prot (rs_reg s) (rs_retired s) st ln /\
      holds (rs_mem s) st (rs_hist s) l
  end.

Definition freshP (reg : region) (ret : list (N * N)) (ns nr : N) : Prop :=
  disj ns nr (r_start reg) (r_res reg) /\ forall a z, In (a, z) ret -> disj ns nr a z.

(* what the writer has achieved when it is parked in each phase *)
Definition phase_ok (s : rs_state) : Prop :=
  let reg := rs_reg s in let h := rs_hist s in let st := r_start reg in
  match rs_w s with
  | WIdle | WHdrPending | WHdrData | WBody => r_len reg = HDR + ESZ * rs_slen s /\ st + r_res reg <= rs_flen s
  | WFitsData | WInData _ =>
      r_len reg = HDR + ESZ * rs_slen s /\ st + r_res reg <= rs_flen s /\ HDR + ESZ * len h <= r_res reg /\
      holds (rs_mem s) st h (len h)
  | WInRes nr => r_len reg = HDR + ESZ * rs_slen s /\ st + r_len reg <= rs_flen s /\ r_res reg = nr /\ HDR + ESZ * len h <= nr
  | WRelRes ns nr => r_len reg = HDR + ESZ * rs_slen s /\ st + r_res reg <= rs_flen s /\ HDR + ESZ * len h <= nr /\ freshP reg (rs_retired s) ns nr
  | WRelCopied ns nr =>
      r_len reg = HDR + ESZ * rs_slen s /\ st + r_res reg <= rs_flen s /\ HDR + ESZ * len h <= nr /\ freshP reg (rs_retired s) ns nr /\
      ns + nr <= rs_flen s /\ holds (rs_mem s) ns h (len h)
  | WAfterRegion => r_len reg = HDR + ESZ * len h /\ st + r_res reg <= rs_flen s /\ holds (rs_mem s) st h (len h)
  | WFailed => False
  end.

Definition lens_ok (n : N) (lg : list event) : Prop := (forall r b, In (EvLen r b) lg -> b <= n) /\ lens_mono lg.

Definition log_ok (s : rs_state) : Prop := lens_ok (rs_slen s) (rs_log s) /\ reads_ok (rs_hist s) (rs_log s).

(* What an addition obliges.  A field of `Inv`: Inv_init, the builders Inv_set_w / _wm / _wreg / _flen /
   _rd (each closes the fields its setter leaves alone by `try apply I`) and the two bullets of Inv_step
   that rebuild the record, LPush and LWPublish.  A conjunct of one arm of `phase_ok`: Inv_bounds, Inv_flen
   and the bullets of Inv_step that enter or leave that phase.  A constructor of SvSteps.wphase: its arm
   of phase_ok, then the same.  A constructor of SvSteps.rs_label: a bullet at the end of Inv_step (a step
   whose phase carries values gets its inversion lemma first, as step_copy_in). *)
Record Inv (s : rs_state) : Prop := {
  i_len : HDR <= r_len (rs_reg s) /\ r_len (rs_reg s) <= r_res (rs_reg s);
  i_slen : rs_slen s <= len (rs_hist s);
  i_data : holds (rs_mem s) (r_start (rs_reg s)) (rs_hist s) (rs_slen s);
  i_phase : phase_ok s;
  i_ret : forall a z, In (a, z) (rs_retired s) -> disj a z (r_start (rs_reg s)) (r_res (rs_reg s));
  i_rd : forall r, rd_ok s (rs_rd s r);
  i_log : log_ok s;
}.

Lemma forallb_fresh ret ns nr :
  forallb (fun e : N * N => disjb ns nr (fst e) (snd e)) ret = true -> forall a z, In (a, z) ret -> disj ns nr a z.
Proof. intros H a z Hin. rewrite forallb_forall in H. apply (H (a, z)) in Hin. now apply disjb_spec in Hin. Qed.

Lemma fresh_spec reg ret ns nr :
  disjb ns nr (r_start reg) (r_res reg) && forallb (fun e : N * N => disjb ns nr (fst e) (snd e)) ret = true ->
  freshP reg ret ns nr.
Proof. intros H. apply andb_prop in H as [H1 H2]. split; [now apply disjb_spec|exact (forallb_fresh _ _ _ H2)]. Qed.

Lemma fresh_out reg ret ns nr a :
  freshP reg ret ns nr ->
  in_ext a (r_start reg) (r_res reg) \/ (exists st z, In (st, z) ret /\ in_ext a st z) ->
  a < ns \/ ns + nr <= a.
Proof. unfold freshP, disj, in_ext. intros [H1 H2] [Ha | (st & z & Hin & Ha)]; [|specialize (H2 _ _ Hin)]; lia. Qed.

Lemma rd_ok_pres s s' x :
  rd_ok s x ->
  rs_slen s <= rs_slen s' -> rs_flen s <= rs_flen s' ->
  (forall st ln, prot (rs_reg s) (rs_retired s) st ln -> prot (rs_reg s') (rs_retired s') st ln) ->
  (forall st ln l, prot (rs_reg s) (rs_retired s) st ln -> l <= rs_slen s -> HDR + ESZ * l <= ln ->
      holds (rs_mem s) st (rs_hist s) l -> holds (rs_mem s') st (rs_hist s') l) ->
  rd_ok s' x.
Proof.
  intros H Hs Hf Hp Hm. destruct x; cbn [rd_ok] in *; try lia; try exact I.
  all: destruct H as (H1 & H2 & H3 & H4 & H5); repeat split; try lia; eauto.
Qed.

Lemma lens_ok_nil n : lens_ok n [].
Proof. split; [intros ? ? []|]. intros l1 l2 r a b Heq. destruct l1; discriminate. Qed.

Lemma lens_ok_le n n' lg : n <= n' -> lens_ok n lg -> lens_ok n' lg.
Proof. intros Hn [H1 H2]. split; [|exact H2]. intros r b Hin. specialize (H1 r b Hin). lia. Qed.

Lemma lens_ok_len r n lg : lens_ok n lg -> lens_ok n (EvLen r n :: lg).
Proof.
  intros [H1 H2]. split.
  - intros r' b [Heq | Hin]; [inversion Heq; lia | eauto].
  - intros l1 l2 r' a b Heq Hin. destruct l1 as [|x l1]; inversion Heq; subst; eauto.
Qed.

Lemma lens_ok_read r l i x n lg : lens_ok n lg -> lens_ok n (EvRead r l i x :: lg).
Proof.
  intros [H1 H2]. split.
  - intros r' b [Heq | Hin]; [discriminate | eauto].
  - intros l1 l2 r' a b Heq Hin. destruct l1 as [|y l1]; inversion Heq; subst; eauto.
Qed.

Lemma Inv_init st0 rv fl : rs_init_ok st0 rv fl -> Inv (rs_init st0 rv fl).
Proof.
  intros [H1 H2]. constructor; cbn.
  - lia.
  - unfold len; cbn; lia.
  - intros i Hi. lia.
  - unfold phase_ok; cbn. nums. lia.
  - intros ? ? [].
  - intros r. exact I.
  - split; [apply lens_ok_nil|intros ? ? ? ? []].
Qed.

Section RawStep.
Hypothesis ORD : sl_ordered = true.

Ltac inv_some := match goal with H : Some _ = Some ?x |- _ => injection H as H; subst x end.
Ltac split_ifs H := repeat match type of H with
  | (if ?c then _ else _) = Some _ => destruct c eqn:?; try discriminate
  | (let _ := _ in _) = Some _ => cbv zeta in H
  | match ?g with GIn => _ | GRel _ => _ end = Some _ => destruct g; try discriminate
  end.

Lemma Inv_bounds s : Inv s ->
  HDR + ESZ * rs_slen s <= r_len (rs_reg s) /\ r_start (rs_reg s) + r_len (rs_reg s) <= rs_flen s.
Proof.
  intros I. pose proof (i_len s I) as Ilen. pose proof (i_slen s I) as Islen. pose proof (i_phase s I) as Iphase.
  unfold phase_ok in Iphase. destruct (rs_w s); nums; intuition lia.
Qed.

Lemma published_own s a : Inv s -> published s a -> own_bytes s a.
Proof. intros I [Ha|Ha]; [left|right; exact Ha]. pose proof (i_len s I). unfold in_ext in *. lia. Qed.

Lemma Inv_set_w s w : Inv s -> phase_ok (set_w s w) -> Inv (set_w s w).
Proof. intros I P. constructor; cbn; auto; apply I. Qed.

Lemma Inv_set_wm s w m :
  Inv s -> (forall a, published s a -> m a = rs_mem s a) -> phase_ok (set_wm s w m) -> Inv (set_wm s w m).
Proof.
  intros I Hm P. destruct (Inv_bounds s I) as [Hb _]. constructor; cbn; auto; try apply I.
  - intros i Hi. rewrite Hm; [exact (i_data s I i Hi)|]. left. unfold in_ext, slot. nums. lia.
  - intros r. eapply rd_ok_pres; [apply (i_rd s I) | cbn; lia | cbn; lia | cbn; auto | ].
    cbn. intros st ln l Hpr Hl Hln Hx i Hi. rewrite Hm; [exact (Hx i Hi)|].
    (* a protected snapshot reads published bytes only *)
    destruct Hpr as [[-> Hr] | (z & Hz & Hr)]; [left|right; exists st, z; split; [exact Hz|]];
      unfold in_ext, slot; nums; lia.
Qed.

Lemma Inv_set_wreg s w reg ret :
  Inv s -> HDR <= r_len reg /\ r_len reg <= r_res reg ->
  holds (rs_mem s) (r_start reg) (rs_hist s) (rs_slen s) ->
  (forall a z, In (a, z) ret -> disj a z (r_start reg) (r_res reg)) ->
  (forall st ln, prot (rs_reg s) (rs_retired s) st ln -> prot reg ret st ln) ->
  phase_ok (set_wreg s w reg ret) -> Inv (set_wreg s w reg ret).
Proof.
  intros I Hl Hd Hr Hp P. constructor; cbn; auto; try apply I.
  intros r. eapply rd_ok_pres; [apply (i_rd s I) | cbn; lia | cbn; lia | exact Hp | cbn; auto].
Qed.

(* w: the state literal of LWGrowFile keeps `rs_w s`, that of LWOtherGrow says WIdle *)
Lemma Inv_flen s f w :
  Inv s -> rs_w s = w -> rs_flen s <= f ->
  Inv {| rs_reg := rs_reg s; rs_flen := f; rs_mem := rs_mem s; rs_slen := rs_slen s; rs_hist := rs_hist s; rs_w := w;
         rs_retired := rs_retired s; rs_rd := rs_rd s; rs_nguard := rs_nguard s; rs_log := rs_log s |}.
Proof.
  intros I <- Hf. constructor; cbn; auto; try apply I.
  - pose proof (i_phase s I) as Iphase. unfold phase_ok in *; cbn. destruct (rs_w s); intuition lia.
  - intros r. eapply rd_ok_pres; [apply (i_rd s I) | cbn; lia | cbn; lia | cbn; auto | cbn; auto].
Qed.

Lemma Inv_set_rd s r x ng lg :
  Inv s -> rd_ok s x -> log_ok (set_rd s r x ng lg) -> Inv (set_rd s r x ng lg).
Proof.
  intros I Hx Hl. constructor; cbn; auto; try apply I.
  intros r'. unfold upd. destruct (r' =? r); [exact Hx | apply (i_rd s I)].
Qed.

(* the data copy of the fits / in-place paths lands behind the region length, inside the reserve *)
Lemma append_frame s :
  Inv s -> r_len (rs_reg s) = HDR + ESZ * rs_slen s -> HDR + ESZ * len (rs_hist s) <= r_res (rs_reg s) ->
  let m := mwrite (rs_mem s) (r_start (rs_reg s) + rs_from s) (rs_pushed s) in
  (forall a, published s a -> m a = rs_mem s a) /\ holds m (r_start (rs_reg s)) (rs_hist s) (len (rs_hist s)).
Proof.
  intros I Hlen Hfit. pose proof (i_slen s I) as Islen. unfold rs_from, rs_pushed. split.
  - intros a Ha. apply mwrite_out. rewrite len_drop.
    destruct Ha as [Ha | (st & z & Hz & Ha)]; unfold in_ext in Ha; [nums; lia|].
    pose proof (i_ret s I _ _ Hz) as Iret. unfold disj in Iret. nums. lia.
  - apply mwrite_holds; [exact Islen|exact (i_data s I)].
Qed.

(* the two copying steps that bind what their phase carries *)
Lemma step_copy_in s s' :
  rs_step s LWCopyIn = Some s' ->
  exists nr, rs_w s = WInRes nr /\ r_start (rs_reg s) + nr <= rs_flen s /\
    s' = set_wm s (WInData nr) (mwrite (rs_mem s) (r_start (rs_reg s) + rs_from s) (rs_pushed s)).
Proof.
  cbn [rs_step]. destruct (rs_w s); try discriminate.
  destruct (ceil_page _ <=? _) eqn:E; [|discriminate]. intros [= <-]. apply N.leb_le in E.
  eexists. split; [reflexivity|]. split; [|reflexivity]. eapply N.le_trans; [apply ceil_page_ge|exact E].
Qed.

Lemma step_rel_copy s s' :
  rs_step s LWRelCopy = Some s' ->
  exists ns nr, rs_w s = WRelRes ns nr /\ ns + nr <= rs_flen s /\
    s' = set_wm s (WRelCopied ns nr)
           (mwrite (mcopy (rs_mem s) (r_start (rs_reg s)) ns (rs_from s)) (ns + rs_from s) (rs_pushed s)).
Proof.
  cbn [rs_step]. destruct (rs_w s); try discriminate.
  destruct (ceil_page _ <=? _) eqn:E; [|discriminate]. intros [= <-]. apply N.leb_le in E.
  do 2 eexists. split; [reflexivity|]. split; [|reflexivity]. eapply N.le_trans; [apply ceil_page_ge|exact E].
Qed.

Lemma Inv_step s l s' : Inv s -> rs_step s l = Some s' -> Inv s'.
Proof.
  intros I H.
  pose proof (i_len s I) as Ilen. pose proof (i_slen s I) as Islen. pose proof (i_data s I) as Idata.
  pose proof (i_phase s I) as Iphase. pose proof (i_ret s I) as Iret. pose proof (i_rd s I) as Ird.
  pose proof (i_log s I) as Ilog. unfold phase_ok in Iphase.
  destruct l; cbn [rs_step] in H.
  - (* LPush *)
    destruct (rs_w s) eqn:W; try discriminate. inv_some.
    constructor; cbn.
    + exact Ilen.
    + rewrite len_app. lia.
    + apply holds_app; assumption.
    + unfold phase_ok; cbn. exact Iphase.
    + exact Iret.
    + intros r. eapply rd_ok_pres; [apply Ird | cbn; lia | cbn; lia | cbn; auto | ].
      cbn. intros st ln l Hpr Hl Hln. apply holds_app. lia.
    + destruct Ilog as (g1 & g2). split; [exact g1|].
      cbn. intros r l i res Hin. destruct (g2 r l i res Hin) as (x1 & x2 & x3). rewrite len_app. repeat split; try lia.
      now rewrite hv_app.
  - (* LWBegin *)
    destruct (rs_w s) eqn:W; try discriminate. inv_some.
    apply Inv_set_w; auto. unfold phase_ok; cbn. destruct stamped; exact Iphase.
  - (* LWHdrCopy *)
    destruct (rs_w s) eqn:W; try discriminate. inv_some. apply Inv_set_w; auto.
  - (* LWHdrDone *)
    destruct (rs_w s) eqn:W; try discriminate. inv_some. apply Inv_set_w; auto.
  - (* LWNoop *)
    destruct (rs_w s) eqn:W; try discriminate. destruct (len (rs_pushed s) =? 0); try discriminate. inv_some.
    apply Inv_set_w; auto.
  - (* LWCopyFits *)
    destruct (rs_w s) eqn:W; try discriminate. destruct Iphase as [Hlen Hfl].
    split_ifs H; inv_some; unfold rs_newlen, rs_from, rs_pushed in *; rewrite ?len_drop in *.
    1: { exfalso. nums. lia. }
    assert (Hfit : HDR + ESZ * len (rs_hist s) <= r_res (rs_reg s)) by (nums; lia).
    destruct (append_frame s I Hlen Hfit) as [Hp Hw].
    apply Inv_set_wm; [exact I|exact Hp|]. unfold phase_ok; cbn. auto.
  - (* LWReserve *)
    destruct (rs_w s) eqn:W; try discriminate. destruct Iphase as [Hlen Hfl].
    split_ifs H; inv_some; unfold rs_newlen, rs_from, rs_pushed in *; rewrite ?len_drop in *.
    + (* in place: the added tail is free space *)
      match goal with Hf : fresh_tail _ _ = true |- _ => pose proof (forallb_fresh _ _ _ Hf) as Hfr end.
      refine (Inv_set_wreg s _ _ _ I ?[len] ?[data] ?[ret] ?[prot] ?[phase]); cbn.
      [len]: { nums. lia. }
      [data]: exact Idata.
      [ret]: { intros a z Hin. specialize (Hfr a z Hin). unfold disj in *. lia. }
      [prot]: { intros st ln [[-> Hr] | Hz]; [left; split; auto; cbn; nums; lia | right; auto]. }
      [phase]: { unfold phase_ok; cbn. repeat split; auto; nums; lia. }
    + match goal with Hf : fresh_ext _ _ _ = true |- _ => apply fresh_spec in Hf as [Hf1 Hfr] end.
      apply Inv_set_w; auto. unfold phase_ok; cbn. repeat split; auto; nums; lia.
  - (* LWGrowFile *)
    destruct (rs_w s) eqn:W; try discriminate; split_ifs H; inv_some; (apply Inv_flen; [exact I|exact W|apply grown_ge]).
  - (* LWCopyIn *)
    destruct (step_copy_in _ _ H) as (nr & W & Hnfl & ->). rewrite W in Iphase.
    destruct Iphase as (Hlen & Hfl & Hres & Hfit). rewrite <- Hres in Hfit.
    destruct (append_frame s I Hlen Hfit) as [Hp Hw].
    apply Inv_set_wm; [exact I|exact Hp|]. unfold phase_ok; cbn. repeat split; auto; lia.
  - (* LWRelCopy: the prefix and the data land in the fresh extent *)
    destruct (step_rel_copy _ _ H) as (ns & nr & W & Hnfl & ->). rewrite W in Iphase.
    destruct Iphase as (Hlen & Hfl & Hfit & (Hfr & Hfrs)).
    unfold rs_from, rs_pushed in *.
    set (from := rs_slen s * ESZ + HDR) in *.
    apply Inv_set_wm; [exact I| |].
    + intros a Ha. pose proof (fresh_out _ _ _ _ _ (conj Hfr Hfrs) (published_own s a I Ha)) as Hout.
      rewrite mwrite_out by (rewrite len_drop; unfold from; nums; lia).
      apply mcopy_out. unfold from. nums. lia.
    + unfold phase_ok; cbn. repeat split; auto; try lia.
      apply mwrite_holds; [exact Islen|]. intros i Hi.
      rewrite mcopy_in by (unfold slot, from; nums; lia).
      replace (slot ns i - ns + r_start (rs_reg s)) with (slot (r_start (rs_reg s)) i) by (unfold slot; lia).
      exact (Idata i Hi).
  - (* LWSetLen *)
    destruct (rs_w s) eqn:W; try discriminate; inv_some;
      unfold rs_newlen, rs_from, rs_pushed in *; rewrite len_drop in *.
    1-2: (* WFitsData, WInData: the region length now covers the copied data *)
      (destruct Iphase as (Hlen & Hfl & Hfit & Hdata); apply Inv_set_wreg; cbn; auto;
       [nums; lia|unfold phase_ok; cbn; repeat split; auto; nums; lia]).
    (* WRelCopied: layout + meta publication; the old extent is vacated *)
    destruct Iphase as (Hlen & Hfl & Hfit & (Hfr & Hfrs) & Hnfl & Hdata).
    refine (Inv_set_wreg s _ _ _ I ?[len] ?[data] ?[ret] ?[prot] ?[phase]); cbn.
    [len]: { nums. lia. }
    [data]: { intros i Hi. apply Hdata. lia. }
    [ret]: { intros a z [Heq | Hin].
      - inversion Heq; subst. unfold disj in *. lia.
      - specialize (Hfrs _ _ Hin). unfold disj in *. lia. }
    [prot]: { intros st ln [[-> Hr] | (z & Hz & Hr)]; right.
      - exists (r_res (rs_reg s)). split; [now left | exact Hr].
      - exists z. split; [now right | exact Hr]. }
    [phase]: { unfold phase_ok; cbn. repeat split; auto; nums; lia. }
  - (* LWPublish *)
    destruct (rs_w s) eqn:W; try discriminate. inv_some. destruct Iphase as (Hlen & Hfl & Hdata).
    constructor; cbn; auto.
    + lia.
    + intros r. eapply rd_ok_pres; [apply Ird | cbn; lia | cbn; lia | cbn; auto | cbn; auto].
    + destruct Ilog as (g1 & g2). split; [exact (lens_ok_le _ _ _ Islen g1)|exact g2].
  - (* LWPublishEarly: excluded by the orderings *)
    destruct (rs_w s); try discriminate; rewrite ORD in H; discriminate.
  - (* LRLoad *)
    assert (Hgo : Inv (set_rd s r (RLen (rs_slen s)) (rs_nguard s) (EvLen r (rs_slen s) :: rs_log s))).
    { apply Inv_set_rd; [exact I|cbn; lia|]. destruct Ilog as (g1 & g2). split; [exact (lens_ok_len _ _ _ g1)|].
      intros r' l i res [Heq | Hin]; [discriminate | eauto]. }
    destruct (rs_rd s r); try discriminate; inv_some; exact Hgo.
  - (* LRSnap *)
    destruct (rs_rd s r) eqn:R; try discriminate. inv_some.
    pose proof (Ird r) as Fr. rewrite R in Fr. cbn in Fr. destruct (Inv_bounds s I) as [Hb Hf].
    apply Inv_set_rd; [exact I| |exact Ilog]. cbn. repeat split; try (nums; lia).
    + left. split; auto. lia.
    + intros i Hi. apply Idata. lia.
  - (* LRGuard *)
    destruct (rs_rd s r) eqn:R; try discriminate. inv_some.
    pose proof (Ird r) as Fr. rewrite R in Fr. apply Inv_set_rd; [exact I|exact Fr|exact Ilog].
  - (* LRRead *)
    destruct (rs_rd s r) eqn:R; try discriminate. destruct (i <? l) eqn:Hi; try discriminate. inv_some.
    pose proof (Ird r) as Fr. rewrite R in Fr. apply Inv_set_rd; [exact I|exact Fr|].
    cbn in Fr. destruct Fr as (f1 & f2 & f3 & f4 & f5).
    destruct Ilog as (g1 & g2). split; [exact (lens_ok_read _ _ _ _ _ _ g1)|].
    cbn. intros r' l' i' res [Heq | Hin]; [|eauto]. inversion Heq; subst.
    repeat split; try lia. unfold raw_read.
    replace ((ln <? HDR) || (rs_flen s <? st + HDR)) with false by (nums; lia).
    fold (slot st i'). rewrite f5 by lia. reflexivity.
  - (* LRDrop *)
    destruct (rs_rd s r); try discriminate; inv_some; (apply Inv_set_rd; [exact I|exact Logic.I|exact Ilog]).
  - (* LWOther: bytes of another region land in a fresh extent *)
    destruct (rs_w s) eqn:W; try discriminate.
    destruct (fresh_ext s ns nr) eqn:Hf; try discriminate. inv_some. apply fresh_spec in Hf.
    apply Inv_set_wm; [exact I| |exact Iphase].
    intros a Ha. apply mfill_out, (fresh_out _ _ _ _ _ Hf (published_own s a I Ha)).
  - (* LWOtherGrow *)
    destruct (rs_w s) eqn:W; try discriminate. split_ifs H. inv_some.
    apply Inv_flen; [exact I|exact W|apply grown_ge].
Qed.

Lemma Inv_reach s0 s : Inv s0 -> rs_reach s0 s -> Inv s.
Proof. intros H R. induction R; auto. eapply Inv_step; eauto. Qed.

End RawStep.

(* C09, raw format *)
Theorem raw_prefix :
  SHARED_LEN_LOAD_ACQUIRE = true -> SHARED_LEN_STORE_RELEASE = true ->
  forall st0 rv fl s, rs_init_ok st0 rv fl -> rs_reach (rs_init st0 rv fl) s ->
  c09_good (rs_hist s) (rs_log s) /\ rs_w s <> WFailed.
Proof.
  intros Ha Hr st0 rv fl s Hi R.
  assert (ORD : sl_ordered = true) by (unfold sl_ordered; now rewrite Ha, Hr).
  assert (IV : Inv s) by (eapply Inv_reach; eauto using Inv_init).
  destruct (i_log s IV) as ((g1 & g3) & g2).
  split; [split; [exact g2 | split; [exact g3|]] |].
  - intros r l i Hin. destruct (g2 _ _ _ _ Hin) as (_ & _ & Hx). discriminate.
  - intros Hw. pose proof (i_phase s IV) as Iphase. unfold phase_ok in Iphase. now rewrite Hw in Iphase.
Qed.

(* LWOther: a write of the same thread to ANOTHER region; own_bytes: the extents live reader snapshots
   may still point to *)
Lemma other_write_frame s ns nr s' :
  rs_step s (LWOther ns nr) = Some s' ->
  (forall a, own_bytes s a -> rs_mem s' a = rs_mem s a) /\
  rs_reg s' = rs_reg s /\ rs_retired s' = rs_retired s /\ rs_slen s' = rs_slen s /\ rs_hist s' = rs_hist s /\
  rs_log s' = rs_log s /\ rs_flen s' = rs_flen s /\ (forall r, rs_rd s' r = rs_rd s r).
Proof.
  intros H. cbn [rs_step] in H. destruct (rs_w s); try discriminate.
  destruct (fresh_ext s ns nr) eqn:Hf; try discriminate. injection H as <-. cbn.
  split; [|repeat split; reflexivity].
  intros a Ha. apply mfill_out, (fresh_out _ _ _ _ _ (fresh_spec _ _ _ _ Hf) Ha).
Qed.

(* a placement that overlaps a vacated extent a reader snapshot still points to is NOT a step of the model
   (the harness reports the real code taking it); if it were taken the reader would read foreign bytes:
   witness on the unguarded memory effect *)
Example other_write_unguarded_clobbers :
  let m := mwrite (fun _ => CNone) (0 + HDR) [11; 12] in
  raw_read m 1048576 0 48 1 = RVal 12 /\ raw_read (mfill m 0 4096) 1048576 0 48 1 = RGarbage.
Proof. vm_compute. split; reflexivity. Qed.

(* not vacuous: a run with a relocation, a reader that
   snapshots the old extent before it and reads after the new length is published *)
Definition rs_demo : list rs_label :=
  [LPush 11; LPush 12; LWBegin false; LWCopyFits; LWSetLen; LWPublish;
   LRLoad 1; LRSnap 1; LRGuard 1;
   LPush 13; LWBegin true; LWHdrCopy; LWHdrDone; LWReserve (GRel 8192); LWRelCopy; LWSetLen; LRLoad 2; LWPublish;
   LRRead 1 1; LRSnap 2; LRGuard 2; LRRead 2 0; LRDrop 1; LRLoad 1].
Example rs_demo_runs :
  match rs_run (rs_init 0 48 1048576) rs_demo with
  | Some s => rs_log s = [EvLen 1 3; EvRead 2 2 0 (RVal 11); EvRead 1 2 1 (RVal 12); EvLen 2 2; EvLen 1 2]
              /\ r_start (rs_reg s) = 8192
  | None => False end.
Proof. vm_compute. split; reflexivity. Qed.

(* the same run with writes to a second vector: one placed behind the relocated extent (accepted), one placed over
   the extent vacated by the relocation while reader 1 still holds its snapshot of it (rejected by the guard) *)
Definition rs_demo_other : list rs_label :=
  [LPush 11; LPush 12; LWBegin false; LWCopyFits; LWSetLen; LWPublish;
   LRLoad 1; LRSnap 1; LRGuard 1;
   LPush 13; LWBegin false; LWReserve (GRel 8192); LWRelCopy; LWSetLen; LWPublish;
   LWOther 16384 4096; LRRead 1 1; LRDrop 1].
Example rs_demo_other_runs :
  match rs_run (rs_init 0 48 1048576) rs_demo_other with
  | Some s => rs_log s = [EvRead 1 2 1 (RVal 12); EvLen 1 2] /\ rs_retired s = [(0, 48)]
              /\ rs_step s (LWOther 0 4096) = None /\ rs_step s (LWOther 8192 64) = None
  | None => False end.
Proof. vm_compute. repeat split; reflexivity. Qed.

Lemma cs_run_reach s0 ls : forall s, cs_run s0 ls = Some s -> cs_reach s0 s.
Proof.
  unfold cs_run. induction ls as [|l ls IH] using rev_ind; intros s H.
  - cbn in H. inversion H. constructor.
  - rewrite fold_left_app in H. cbn in H.
    destruct (fold_left _ ls (Some s0)) as [s1|] eqn:E; [|discriminate].
    econstructor; [apply IH; reflexivity | exact H].
Qed.

Lemma reads_okb_complete h lg : reads_ok h lg -> reads_okb h lg = true.
Proof.
  induction lg as [|e lg IH]; intros H; [reflexivity|].
  assert (Ht : reads_ok h lg) by (intros r l i x Hin; apply (H r l i x); now right).
  destruct e as [r l | r l i x]; cbn [reads_okb]; [now apply IH|].
  destruct (H r l i x (or_introl eq_refl)) as (h1 & h2 & ->).
  rewrite IH by exact Ht. cbn [rres_eqb]. rewrite N.eqb_refl.
  replace (i <? l) with true by lia. replace (i <? len h) with true by lia. reflexivity.
Qed.

(* The slow path of write() (a raw partial page that overflows is re-encoded) rewrites the bytes of the
   partial page IN PLACE (region truncate_write at page.start, compressed/.../any_stored_vec.rs) before
   it takes the pages write lock; a reader that holds the pages read lock (hence the OLD page entry:
   raw, 1 value at offset 32) decodes the rewritten bytes.
   Values per page = 2 keeps the witness small; the real code has 2048. *)
Definition comp_bad_run : list cs_label :=
  [KPush 11; KBegin []; KSetLen; KLock; KIndex; KPublish; KFlush; KUnlock;
   KRLoad 1; KRSnap 1; KRGuard 1; KRPages 1;
   KPush 12; KBegin [5];
   KRRead 1 0].
Lemma comp_bad_run_bad :
  match cs_run (cs_init 0 4096 1048576 2) comp_bad_run with
  | Some s => reads_okb (cs_hist s) (cs_log s) = false /\ cs_log s = [EvRead 1 1 0 RGarbage; EvLen 1 1]
  | None => False end.
Proof. vm_compute. split; reflexivity. Qed.

(* second witness: relocation.  The reader snapshots the region (old start) before the write, the writer
   relocates the region (copying only the bytes below the rewritten page), updates the index and
   publishes; the reader then takes the pages lock, sees the NEW entry and decodes it at the OLD start. *)
Definition comp_bad_run2 : list cs_label :=
  [KPush 11; KBegin []; KSetLen; KLock; KIndex; KPublish; KFlush; KUnlock;
   KRLoad 1; KRSnap 1; KRGuard 1;
   KPush 12; KBegin [5000]; KReserve (GRel 8192); KCopy; KSetLen; KLock; KIndex; KPublish; KFlush; KUnlock;
   KRPages 1; KRRead 1 0].
Lemma comp_bad_run2_bad :
  match cs_run (cs_init 0 4096 1048576 2) comp_bad_run2 with
  | Some s => reads_okb (cs_hist s) (cs_log s) = false /\ r_start (cs_reg s) = 8192
  | None => False end.
Proof. vm_compute. split; reflexivity. Qed.

Definition comp_prefix_full_stmt : Prop :=
  forall st0 rv fl pp s, HDR <= rv -> st0 + rv <= fl -> 0 < pp ->
  cs_reach (cs_init st0 rv fl pp) s -> c09_good (cs_hist s) (cs_log s).

Theorem comp_prefix_refuted :
  exists st0 rv fl pp s, (HDR <= rv) /\ (st0 + rv <= fl) /\ (0 < pp) /\ (cs_reach (cs_init st0 rv fl pp) s) /\ (~ c09_good (cs_hist s) (cs_log s)).
Proof.
  pose proof comp_bad_run_bad as H.
  destruct (cs_run (cs_init 0 4096 1048576 2) comp_bad_run) as [s|] eqn:E; [|contradiction].
  exists 0, 4096, 1048576, 2, s. repeat split; try (nums; lia).
  - now apply cs_run_reach with (ls := comp_bad_run).
  - intros (Hr & _). apply reads_okb_complete in Hr. destruct H as [H _]. congruence.
Qed.

(* What does hold of the compressed format for every schedule: a reader never sees the shared length go
   down (it is stored after the index update, under the pages write lock, and only grows). *)
Definition cs_lens_inv (s : cs_state) : Prop := cs_slen s <= len (cs_hist s) /\ lens_ok (cs_slen s) (cs_log s).

Lemma cs_step_lens s l s' :
  cs_step s l = Some s' ->
  (cs_hist s' = cs_hist s \/ exists v, cs_hist s' = cs_hist s ++ [v]) /\
  (cs_slen s' = cs_slen s \/ cs_slen s' = len (cs_hist s)) /\
  (cs_log s' = cs_log s \/ (exists r, cs_log s' = EvLen r (cs_slen s) :: cs_log s)
   \/ exists r l i x, cs_log s' = EvRead r l i x :: cs_log s).
Proof.
  intros H. destruct l; cbn [cs_step] in H;
    repeat match type of H with
           | match ?x with _ => _ end = Some _ => destruct x; try discriminate
           | (if ?x then _ else _) = Some _ => destruct x; try discriminate
           | (let _ := _ in _) = Some _ => cbv zeta in H
           end;
    injection H as <-; cbn; eauto 12.
Qed.

Lemma cs_lens_step s l s' : cs_lens_inv s -> cs_step s l = Some s' -> cs_lens_inv s'.
Proof.
  intros (A & B) H. destruct (cs_step_lens _ _ _ H) as (Hh & Hs & Hl). unfold cs_lens_inv.
  assert (Hlen : len (cs_hist s) <= len (cs_hist s')) by (destruct Hh as [->|[v ->]]; [|rewrite len_app]; lia).
  assert (Hsl : cs_slen s <= cs_slen s' /\ cs_slen s' <= len (cs_hist s')) by (destruct Hs as [->| ->]; lia).
  split; [lia|]. apply (lens_ok_le (cs_slen s)); [lia|].
  destruct Hl as [->|[[r ->]|(r & l0 & i & x & ->)]]; [exact B|apply lens_ok_len, B|apply lens_ok_read, B].
Qed.

Theorem comp_lens :
  forall st0 rv fl pp s, cs_reach (cs_init st0 rv fl pp) s ->
  lens_mono (cs_log s) /\ forall r b, In (EvLen r b) (cs_log s) -> b <= cs_slen s.
Proof.
  intros st0 rv fl pp s R.
  assert (I : cs_lens_inv s).
  { induction R; [|eapply cs_lens_step; eauto]. split; [unfold len; cbn; lia|apply lens_ok_nil]. }
  destruct I as (_ & B & C). split; auto.
Qed.

Lemma comp_lens_partial :
  SHARED_LEN_LOAD_ACQUIRE = true -> SHARED_LEN_STORE_RELEASE = true ->
  forall st0 rv fl pp s, cs_reach (cs_init st0 rv fl pp) s ->
  lens_mono (cs_log s) /\ forall r b, In (EvLen r b) (cs_log s) -> b <= cs_slen s.
Proof. intros _ _. exact comp_lens. Qed.

Definition cs_own_bytes (s : cs_state) (a : N) : Prop :=
  in_ext a (r_start (cs_reg s)) (r_res (cs_reg s)) \/ exists st z, In (st, z) (cs_retired s) /\ in_ext a st z.

Lemma cs_other_write_frame s ns nr s' :
  cs_step s (KOther ns nr) = Some s' ->
  (forall a, cs_own_bytes s a -> cs_mem s' a = cs_mem s a) /\
  cs_reg s' = cs_reg s /\ cs_retired s' = cs_retired s /\ cs_slen s' = cs_slen s /\ cs_hist s' = cs_hist s /\
  cs_pages s' = cs_pages s /\ cs_blobs s' = cs_blobs s /\ cs_log s' = cs_log s /\ cs_flen s' = cs_flen s /\
  (forall r, cs_rd s' r = cs_rd s r).
Proof.
  intros H. cbn [cs_step] in H. destruct (cs_w s); try discriminate.
  destruct (cs_fresh_ext s ns nr) eqn:Hf; try discriminate. injection H as <-. cbn.
  split; [|repeat split; reflexivity].
  intros a Ha. apply mfill_out, (fresh_out _ _ _ _ _ (fresh_spec _ _ _ _ Hf) Ha).
Qed.
