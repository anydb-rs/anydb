(* C11 on the lock model Conc/RwLock.v (DESIGN.md section 4).  RankTheorem is proved for the
   unordered writer queue.  RankTheoremFifo (parking_lot's queue): the FIFO relation restricts the
   unordered one, and under `qinv` (the queue lists exactly the registered writers) every unordered
   step has a FIFO step beside it (step_to_fstep), so the stuck states are the same.
   check_deadlock_sound: a schedule the checker accepts is a reachable deadlock (the witnesses of
   Conc/LockInstance.v).  Stdlib only.
   Where a new constructor is entered, beside RwLock.rm / rm_b / ftstep_f: of `instr` in rm_b_sound,
   progress_from_blocked (the holder's next instruction), progress_any, ftstep_f_sound and
   LockInstance.prog_eqb_eq; of `tstep` in tstep_wait_ok, tstep_thread_ok, step_to_fstep; of `ftstep` in
   ftstep_tstep, fstep_qinv, ftstep_f_complete. *)
From Coq Require Import List Arith Lia Bool PeanoNat.
Import ListNotations.
From Anydb Require Import Conc.RwLock.

Lemma lock_eqb_eq a b : lock_eqb a b = true <-> a = b.
Proof.
  unfold lock_eqb. destruct a as [a1 a2], b as [b1 b2]; cbn.
  rewrite andb_true_iff, !Nat.eqb_eq. split.
  - intros [-> ->]; reflexivity.
  - intros E; inversion E; auto.
Qed.

Lemma lock_eqb_refl a : lock_eqb a a = true.
Proof. apply lock_eqb_eq; reflexivity. Qed.

Lemma inh_true h l : inh h l = true -> exists m, In (l, m) h.
Proof.
  unfold inh. intros H. apply existsb_exists in H as ([l' m] & Hin & E).
  cbn in E. apply lock_eqb_eq in E; subst. eauto.
Qed.

Lemma anyHoldsW_anyHolds s l : anyHoldsW s l = true -> anyHolds s l = true.
Proof.
  unfold anyHoldsW, anyHolds, holdsW_b, holds_b, inh. rewrite !existsb_exists. intros (t & Hin & H).
  exists t. split; [exact Hin|]. apply existsb_exists in H as (x & Hx & E).
  apply andb_true_iff in E as [E _]. apply existsb_exists. eauto.
Qed.

Lemma waits_b_true t l : waits_b t l = true -> wait t = Some l.
Proof.
  unfold waits_b. destruct (wait t) as [l'|]; [|discriminate].
  intros E. apply lock_eqb_eq in E; subst; reflexivity.
Qed.

Lemma is_nil_true {A} (l : list A) : is_nil l = true -> l = [].
Proof. destruct l; [reflexivity | discriminate]. Qed.

Lemma rm_b_sound rank : forall p h, rm_b rank h p = true -> rm rank h p.
Proof.
  induction p as [|[l m|l|d] p IH]; intros h H; cbn in *; [apply is_nil_true; assumption|..];
    apply andb_true_iff in H as [H1 H2]; (split; [|apply IH; assumption]).
  - intros x Hx. rewrite forallb_forall in H1. apply Nat.ltb_lt, H1, Hx.
  - assumption.
  - apply is_nil_true; assumption.
Qed.

Theorem rank_monotone_b_sound rank p : rank_monotone_b rank p = true -> rank_monotone rank p.
Proof. apply rm_b_sound. Qed.

Definition wait_ok (t : thread) : Prop :=
  forall l, wait t = Some l -> exists p, code t = Acq l Wr :: p.

Lemma tstep_wait_ok s i t t' : wait_ok t -> tstep s i t t' -> wait_ok t'.
Proof.
  intros Hw Hs; destruct Hs; unfold wait_ok in *; cbn in *; intros l0 E; try discriminate.
  - inversion E; subst; eauto.
  - destruct (Hw l0 E) as [p0 Hp0]; discriminate.
  - destruct (Hw l0 E) as [p0 Hp0]; discriminate.
Qed.

Lemma reach_Forall (Q : thread -> Prop) :
  (forall s i t t', Q t -> tstep s i t t' -> Q t') ->
  forall s0 s, Forall Q s0 -> reach s0 s -> Forall Q s.
Proof.
  intros HQ s0 s H0 Hr. induction Hr as [s|s s' s'' Hr IH Hs]; [assumption|].
  specialize (IH H0). inversion Hs; subst. apply Forall_app in IH as [H1 H2]. inversion H2; subst.
  apply Forall_app; split; [assumption|]. constructor; [|assumption]. eapply HQ; eassumption.
Qed.

(* `forall i`: the index of t in s is known only after in_split *)
Lemma step_of_tstep s t t' : In t s -> (forall i, tstep s i t t') -> exists s', step s s'.
Proof.
  intros Hin Hs. apply in_split in Hin as (s1 & s2 & ->).
  eexists; econstructor; apply Hs.
Qed.

Lemma registered_moves s w l :
  In w s -> wait_ok w -> wait w = Some l -> anyHolds s l = false -> exists s', step s s'.
Proof.
  intros Hin Hg Hw HA. destruct (Hg l Hw) as [p Hp]. destruct w as [c h ww]; cbn in Hw, Hp; subst.
  eapply step_of_tstep; [exact Hin | intro; apply st_acq_w; exact HA].
Qed.

Section Progress.
  Variable rank : nat -> nat.
  Variable B : nat.
  Hypothesis rank_bound : forall c, rank c < B.

  Definition thread_ok (t : thread) : Prop := rm rank (held t) (code t) /\ wait_ok t.

  (* Induction on B - rank l.  If nobody holds l, the thread itself or a writer registered on l
     takes it.  Otherwise a holder of l is unfinished, does not sit at a Join (it holds something),
     and sits at a Rel (enabled) or at an Acq of strictly higher rank. *)
  Lemma progress_from_blocked :
    forall n s, (forall t, In t s -> thread_ok t) ->
    forall t l m p, In t s -> code t = Acq l m :: p -> B - lrank rank l <= n ->
    exists s', step s s'.
  Proof.
    induction n as [|n IH]; intros s Hg t l m p Hin Hp Hn.
    { unfold lrank in Hn. specialize (rank_bound (fst l)). lia. }
    destruct (anyHolds s l) eqn:HA.
    - apply existsb_exists in HA as (h & Hh & Hl). apply inh_true in Hl as [mh Hl].
      destruct (Hg h Hh) as [Hrm _]. destruct h as [[|[l' m'|l'|d'] ph'] hh wh]; cbn in Hrm, Hl.
      + subst hh; contradiction.
      + destruct Hrm as [Hlt _]. specialize (Hlt _ Hl). cbn in Hlt.
        eapply (IH s Hg _ l' m' ph' Hh eq_refl).
        unfold lrank in *. specialize (rank_bound (fst l')). lia.
      + eapply step_of_tstep; [exact Hh | intro; apply st_rel].
      + destruct Hrm as [-> _]; contradiction.
    - destruct (wait t) as [lw|] eqn:Hw.
      + destruct (Hg t Hin) as [_ Hwt]. destruct (Hwt lw Hw) as [px Hx].
        rewrite Hp in Hx. injection Hx as -> _ _. eapply registered_moves; eauto.
      + destruct t as [pt ht wt]; cbn in Hp, Hw; subst pt wt. destruct m.
        * destruct (anyWaits s l) eqn:HQ.
          -- apply existsb_exists in HQ as (w & Hwin & Hww). apply waits_b_true in Hww.
             eapply registered_moves; [exact Hwin | apply Hg, Hwin | exact Hww | exact HA].
          -- eapply step_of_tstep; [exact Hin | intro; apply st_acq_r; [|exact HQ]].
             destruct (anyHoldsW s l) eqn:HW; [apply anyHoldsW_anyHolds in HW; congruence | reflexivity].
        * eapply step_of_tstep; [exact Hin | intro; apply st_acq_w_direct; exact HA].
  Qed.

  (* Induction on the distance of the thread's index from the end of the list: a Join leads to a
     LATER thread. *)
  Lemma progress_any :
    forall k s, (forall t, In t s -> thread_ok t) ->
    forall i t, nth_error s i = Some t -> code t <> [] -> length s - i <= k ->
    exists s', step s s'.
  Proof.
    induction k as [|k IH]; intros s Hg i t Hi Hne Hk.
    { assert (i < length s) by (apply nth_error_Some; congruence). lia. }
    assert (Hin : In t s) by (eapply nth_error_In; eassumption).
    destruct (code t) as [|[l m|l|d] p] eqn:Hp; [congruence| | |].
    - eapply (progress_from_blocked (B - lrank rank l) s Hg t l m p Hin Hp). lia.
    - destruct t as [pt ht wt]; cbn in *; subst.
      eapply step_of_tstep; [exact Hin | intro; apply st_rel].
    - destruct (done_b s (i + 1 + d)) eqn:Hd.
      + apply nth_error_split in Hi as (s1 & s2 & -> & <-).
        destruct t as [pt ht wt]; cbn in *; subst.
        eexists; econstructor; apply st_join; exact Hd.
      + unfold done_b in Hd. destruct (nth_error s (i + 1 + d)) as [u|] eqn:Hu; [|discriminate].
        assert (i + 1 + d < length s) by (apply nth_error_Some; congruence).
        eapply (IH s Hg (i + 1 + d) u Hu); [|lia].
        destruct (code u); [discriminate | congruence].
  Qed.

  Theorem no_stuck_state s : Forall thread_ok s -> unfinished s -> exists s', step s s'.
  Proof.
    intros Hg (t & Hin & Hne). apply In_nth_error in Hin as [i Hi]. rewrite Forall_forall in Hg.
    eapply (progress_any (length s - i) s Hg i t Hi Hne). lia.
  Qed.

  Lemma start_thread_ok progs :
    (forall p, In p progs -> rank_monotone rank p) -> Forall thread_ok (start progs).
  Proof.
    intros H. unfold start. apply Forall_forall. intros t Hin.
    apply in_map_iff in Hin as (p & <- & Hp). split; cbn.
    - apply H; assumption.
    - intros l E; discriminate.
  Qed.

  Lemma tstep_thread_ok s i t t' : thread_ok t -> tstep s i t t' -> thread_ok t'.
  Proof.
    intros [H1 H2] Hs; split; [|eapply tstep_wait_ok; eassumption].
    destruct Hs; cbn in *; try apply H1. destruct H1 as [-> H1]; exact H1.
  Qed.

  Theorem RankTheorem :
    forall P : list prog, (forall p, In p P -> rank_monotone rank p) ->
    forall progs, incl progs P ->
    forall s, reach (start progs) s -> unfinished s -> exists s', step s s'.
  Proof.
    intros P HP progs Hincl s Hr Hu. apply no_stuck_state; [|assumption].
    eapply reach_Forall; [exact tstep_thread_ok | | exact Hr].
    apply start_thread_ok. intros p Hp; apply HP, Hincl; assumption.
  Qed.

  Corollary RankTheorem_no_deadlock :
    forall P : list prog, (forall p, In p P -> rank_monotone rank p) ->
    forall progs, incl progs P -> forall s, reach (start progs) s -> ~ deadlocked s.
  Proof.
    intros P HP progs Hi s Hr [Hu Hn]. apply Hn. eapply RankTheorem; eassumption.
  Qed.
End Progress.

Definition waits_at (s : state) (i : nat) (l : lock) : Prop :=
  exists t, nth_error s i = Some t /\ wait t = Some l.

Definition qinv (s : state) (q : queue) : Prop := forall l i, In (l, i) q <-> waits_at s i l.

Lemma ftstep_tstep s q i t t' q' : ftstep s q i t t' q' -> tstep s i t t'.
Proof. intros H; destruct H; constructor; assumption. Qed.

Lemma fstep_step s q s' q' : fstep (s, q) (s', q') -> step s s'.
Proof. intros H; inversion H; subst. constructor. eapply ftstep_tstep; eassumption. Qed.

Lemma freach_reach st0 st : freach st0 st -> reach (fst st0) (fst st).
Proof.
  intros H; induction H as [st|st st' st'' Hr IH Hs]; [constructor|].
  destruct st' as [s' q'], st'' as [s'' q'']. eapply reach_step; [exact IH|].
  eapply fstep_step; exact Hs.
Qed.

Lemma nth_error_mid {A} (s1 s2 : list A) t : nth_error (s1 ++ t :: s2) (length s1) = Some t.
Proof. rewrite nth_error_app2 by lia. rewrite Nat.sub_diag. reflexivity. Qed.

Lemma nth_error_mid_neq {A} (s1 s2 : list A) t t' j :
  j <> length s1 -> nth_error (s1 ++ t' :: s2) j = nth_error (s1 ++ t :: s2) j.
Proof.
  intros Hj. destruct (Nat.lt_ge_cases j (length s1)) as [Hlt|Hge].
  - rewrite !nth_error_app1 by assumption. reflexivity.
  - rewrite !nth_error_app2 by assumption.
    destruct (j - length s1) as [|k] eqn:E; [lia | reflexivity].
Qed.

Lemma waits_at_here s1 t s2 l : waits_at (s1 ++ t :: s2) (length s1) l <-> wait t = Some l.
Proof.
  unfold waits_at. rewrite nth_error_mid. split; [intros (u & E & H); inversion E; subst; exact H|eauto].
Qed.

Lemma waits_at_other s1 t t' s2 i l :
  i <> length s1 -> waits_at (s1 ++ t' :: s2) i l <-> waits_at (s1 ++ t :: s2) i l.
Proof. intros Hi. unfold waits_at. rewrite (nth_error_mid_neq s1 s2 t t') by exact Hi. reflexivity. Qed.

Lemma qinv_update s1 t t' s2 q q' :
  qinv (s1 ++ t :: s2) q ->
  (forall l i, i <> length s1 -> In (l, i) q' <-> In (l, i) q) ->
  (forall l, In (l, length s1) q' <-> wait t' = Some l) ->
  qinv (s1 ++ t' :: s2) q'.
Proof.
  intros Hq Ho Hh l i. destruct (Nat.eq_dec i (length s1)) as [->|Hne].
  - rewrite waits_at_here. apply Hh.
  - rewrite (waits_at_other s1 t t') by exact Hne. rewrite (Ho l i Hne). apply Hq.
Qed.

Lemma qdel_in q i l j : In (l, j) (qdel q i) <-> In (l, j) q /\ j <> i.
Proof.
  unfold qdel. rewrite filter_In. cbn. rewrite negb_true_iff, Nat.eqb_neq. tauto.
Qed.

Lemma qinv_here s1 t s2 q l : qinv (s1 ++ t :: s2) q -> In (l, length s1) q <-> wait t = Some l.
Proof. intros Hq. rewrite (Hq l (length s1)). apply waits_at_here. Qed.

Lemma qinv_same_wait s1 t t' s2 q : qinv (s1 ++ t :: s2) q -> wait t' = wait t -> qinv (s1 ++ t' :: s2) q.
Proof.
  intros Hq E. apply (qinv_update _ _ _ _ _ _ Hq); [tauto|].
  intros l. rewrite E. apply (qinv_here _ _ _ _ _ Hq).
Qed.

Lemma fstep_qinv s q s' q' : qinv s q -> fstep (s, q) (s', q') -> qinv s' q'.
Proof.
  intros Hq Hs; inversion Hs as [s1 t t' s2 q0 q0' Hft]; subst.
  inversion Hft; subst; try (apply (qinv_same_wait _ _ _ _ _ Hq); reflexivity).
  (* left: the two steps that change `wait`, ft_reg_w and ft_acq_w *)
  - apply (qinv_update _ _ _ _ _ _ Hq); intros l0; [intros i Hi|]; rewrite in_app_iff; cbn.
    + split; [intros [X|[E|[]]]|auto]; [exact X|congruence].
    + rewrite (qinv_here _ _ _ _ _ Hq). cbn. split; [intros [X|[E|[]]]|intros E; right; left]; congruence.
  - apply (qinv_update _ _ _ _ _ _ Hq); intros l0; [intros i Hi|]; rewrite qdel_in; [tauto|].
    split; [intros [_ X]; contradiction|discriminate].
Qed.

Lemma qinv_start progs : qinv (start progs) [].
Proof.
  intros l i. split; [intros []|]. intros (t & Hn & Hw). apply nth_error_In in Hn. unfold start in Hn.
  apply in_map_iff in Hn as (p & <- & _). discriminate.
Qed.

Lemma wait_ok_start progs : Forall wait_ok (start progs).
Proof.
  apply Forall_forall. intros t Hin. unfold start in Hin.
  apply in_map_iff in Hin as (p & <- & _). intros l E; discriminate.
Qed.

Lemma queue_head_moves s q l i :
  Forall wait_ok s -> qinv s q -> In (l, i) q -> anyHolds s l = false -> exists st', fstep (s, q) st'.
Proof.
  intros Hg Hq Hin HA.
  destruct (find (fun e => lock_eqb (fst e) l) q) as [[l' j]|] eqn:Hf.
  - assert (Hh : qhead q l = Some j) by (unfold qhead; rewrite Hf; reflexivity).
    apply find_some in Hf as [Hq' El]. cbn in El. apply lock_eqb_eq in El; subst l'.
    destruct (proj1 (Hq l j) Hq') as (u & Hu & Hwu).
    assert (Hgu : wait_ok u) by (rewrite Forall_forall in Hg; apply Hg; eapply nth_error_In; eassumption).
    destruct (Hgu l Hwu) as [p Hp].
    apply nth_error_split in Hu as (s1 & s2 & -> & <-).
    destruct u as [cu hu wu]; cbn in *; subst.
    eexists; econstructor. apply ft_acq_w; assumption.
  - exfalso. apply (find_none _ _ Hf) in Hin. cbn in Hin. rewrite lock_eqb_refl in Hin. discriminate.
Qed.

Lemma step_to_fstep s q s' :
  Forall wait_ok s -> qinv s q -> step s s' -> exists st', fstep (s, q) st'.
Proof.
  intros Hg Hq Hs. inversion Hs as [s1 t t' s2 Hts]; subst.
  inversion Hts; subst.
  - eexists; econstructor; apply ft_acq_r; assumption.
  - eexists; econstructor; apply ft_reg_w.
  - eapply queue_head_moves; [exact Hg | exact Hq | apply Hq, waits_at_here; reflexivity | assumption].
  - (* a direct acquisition: the queue for l is empty, or else its head may take l *)
    destruct (qhas q l) eqn:Hqh.
    + apply existsb_exists in Hqh as ([l' j] & Hin & El). cbn in El. apply lock_eqb_eq in El; subst l'.
      eapply queue_head_moves; eassumption.
    + eexists; econstructor; apply ft_acq_w_direct; assumption.
  - eexists; econstructor; apply ft_rel.
  - eexists; econstructor; apply ft_join; assumption.
Qed.

Lemma freach_inv progs st :
  freach (fstart progs) st -> Forall wait_ok (fst st) /\ qinv (fst st) (snd st).
Proof.
  intros H. split; [exact (reach_Forall wait_ok tstep_wait_ok _ _ (wait_ok_start progs) (freach_reach _ _ H))|].
  remember (fstart progs) as st0 eqn:E. induction H as [st|st st' st'' Hr IH Hs]; subst; [apply qinv_start|].
  destruct st' as [s' q'], st'' as [s'' q'']. eapply fstep_qinv; [exact (IH eq_refl)|exact Hs].
Qed.

Lemma freach_step_transfer progs st s' :
  freach (fstart progs) st -> step (fst st) s' -> exists st', fstep st st'.
Proof.
  intros Hr Hs. destruct (freach_inv _ _ Hr) as [Hg Hq]. destruct st as [s q].
  eapply step_to_fstep; eassumption.
Qed.

Theorem fifo_dead_unordered_dead progs st :
  freach (fstart progs) st -> fdeadlocked st -> deadlocked (fst st).
Proof.
  intros Hr [Hu Hn]. split; [exact Hu|]. intros [s' Hs]. exact (Hn (freach_step_transfer _ _ _ Hr Hs)).
Qed.

Section ProgressFifo.
  Variable rank : nat -> nat.
  Variable B : nat.
  Hypothesis rank_bound : forall c, rank c < B.

  Theorem RankTheoremFifo :
    forall P : list prog, (forall p, In p P -> rank_monotone rank p) ->
    forall progs, incl progs P ->
    forall st, freach (fstart progs) st -> unfinished (fst st) -> exists st', fstep st st'.
  Proof.
    intros P HP progs Hincl st Hr Hu.
    destruct (RankTheorem rank B rank_bound P HP progs Hincl _ (freach_reach _ _ Hr) Hu) as [s' Hs].
    exact (freach_step_transfer _ _ _ Hr Hs).
  Qed.
End ProgressFifo.

Lemma set_nth_split {A} (s1 s2 : list A) t t' : set_nth (length s1) t' (s1 ++ t :: s2) = s1 ++ t' :: s2.
Proof.
  induction s1 as [|a s1 IH]; [reflexivity|].
  unfold set_nth in *; cbn in *. f_equal. exact IH.
Qed.

Lemma ftstep_f_sound s q i t t' q' : ftstep_f s q i t = Some (t', q') -> ftstep s q i t t' q'.
Proof.
  destruct t as [[|[l [|]|l|d] p] h w]; unfold ftstep_f; cbn; try discriminate.
  - destruct w; [discriminate|].
    destruct (anyHoldsW s l) eqn:E1, (anyWaits s l) eqn:E2; try discriminate.
    intros [= <- <-]. apply ft_acq_r; assumption.
  - destruct w as [l'|].
    + destruct (lock_eqb l' l) eqn:El, (anyHolds s l) eqn:E1, (qhead q l) as [j|] eqn:E2; try discriminate. cbn.
      destruct (Nat.eqb_spec j i) as [->|]; [|discriminate]. apply lock_eqb_eq in El as ->.
      intros [= <- <-]. apply ft_acq_w; assumption.
    + destruct (anyHolds s l) eqn:E1, (qhas q l) eqn:E2; cbn; intros [= <- <-];
        [apply ft_reg_w..|apply ft_acq_w_direct; assumption].
  - intros [= <- <-]. apply ft_rel.
  - destruct (done_b s (i + 1 + d)) eqn:E1; [|discriminate]. intros [= <- <-]. apply ft_join; assumption.
Qed.

Lemma ftstep_f_complete s q i t t' q' : ftstep s q i t t' q' -> ftstep_f s q i t <> None.
Proof.
  intros H; destruct H; unfold ftstep_f; cbn.
  - rewrite H, H0. discriminate.
  - destruct (anyHolds s l || qhas q l); discriminate.
  - rewrite lock_eqb_refl, H, H0, Nat.eqb_refl. discriminate.
  - rewrite H, H0. discriminate.
  - discriminate.
  - rewrite H. discriminate.
Qed.

Lemma fstep_f_sound st i st' : fstep_f st i = Some st' -> fstep st st'.
Proof.
  destruct st as [s q]; unfold fstep_f; cbn.
  destruct (nth_error s i) as [t|] eqn:Hn; [|discriminate].
  destruct (ftstep_f s q i t) as [[t' q']|] eqn:Hf; [|discriminate].
  intros E; inversion E; subst.
  apply nth_error_split in Hn as (s1 & s2 & -> & <-).
  rewrite set_nth_split. constructor. apply ftstep_f_sound; assumption.
Qed.

Lemma fstep_f_complete st st' :
  fstep st st' -> exists i, i < length (fst st) /\ fstep_f st i <> None.
Proof.
  intros H; inversion H as [s1 t t' s2 q q' Hft]; subst. exists (length s1); split.
  - cbn. rewrite app_length; cbn; lia.
  - unfold fstep_f; cbn. rewrite nth_error_mid.
    pose proof (ftstep_f_complete _ _ _ _ _ _ Hft) as Hc.
    destruct (ftstep_f (s1 ++ t :: s2) q (length s1) t) as [[t0 q0]|]; [discriminate | congruence].
Qed.

Lemma freach_step_l a b c : fstep a b -> freach b c -> freach a c.
Proof.
  intros Hab Hbc. induction Hbc as [b|b c d _ IH Hcd]; [|eapply freach_step; [apply IH; exact Hab|exact Hcd]].
  eapply freach_step; [constructor|exact Hab].
Qed.

Lemma frun_sound : forall sch st st', frun st sch = Some st' -> freach st st'.
Proof.
  induction sch as [|i r IH]; intros st st' H; cbn in H.
  - inversion H; subst; constructor.
  - destruct (fstep_f st i) as [st1|] eqn:E; [|discriminate].
    eapply freach_step_l; [exact (fstep_f_sound _ _ _ E) | apply IH; exact H].
Qed.

Lemma unfinished_b_sound s : unfinished_b s = true -> unfinished s.
Proof.
  unfold unfinished_b. intros H. apply existsb_exists in H as (t & Hin & Hn).
  exists t; split; [assumption|]. destruct (code t); discriminate.
Qed.

Lemma stuck_b_sound st : stuck_b st = true -> ~ exists st', fstep st st'.
Proof.
  unfold stuck_b. intros H [st' Hs]. rewrite forallb_forall in H.
  apply fstep_f_complete in Hs as (i & Hi & Hne).
  specialize (H i). rewrite in_seq in H. specialize (H ltac:(lia)).
  destruct (fstep_f st i); [discriminate | congruence].
Qed.

Theorem check_deadlock_sound progs sch :
  check_deadlock progs sch = true ->
  exists st, freach (fstart progs) st /\ fdeadlocked st.
Proof.
  unfold check_deadlock. destruct (frun (fstart progs) sch) as [st|] eqn:E; [|discriminate].
  intros H. unfold dead_b in H. apply andb_true_iff in H as [H1 H2].
  exists st; split; [apply frun_sound with sch; assumption|]. split.
  - apply unfinished_b_sound; assumption.
  - apply stuck_b_sound; assumption.
Qed.

Corollary check_deadlock_unordered progs sch :
  check_deadlock progs sch = true ->
  exists s, reach (start progs) s /\ deadlocked s.
Proof.
  intros H. apply check_deadlock_sound in H as (st & Hr & Hd).
  exists (fst st); split.
  - apply freach_reach in Hr; exact Hr.
  - eapply fifo_dead_unordered_dead; eassumption.
Qed.

(* the hypotheses are satisfiable (ex_monotone); the AB/BA pair is not rank-monotone and deadlocks *)
Example ex_rank (c : nat) : nat := c.
Example ex_monotone :
  forallb (rank_monotone_b ex_rank)
          [[Acq (0, 0) Rd; Acq (1, 0) Wr; Rel (1, 0); Rel (0, 0)]; [Acq (1, 0) Wr; Rel (1, 0); Join 0]] = true.
Proof. reflexivity. Qed.
Example ex_abba :
  check_deadlock [[Acq (0, 0) Wr; Acq (1, 0) Wr; Rel (1, 0); Rel (0, 0)];
                  [Acq (1, 0) Wr; Acq (0, 0) Wr; Rel (0, 0); Rel (1, 0)]] [0; 1; 0; 1] = true.
Proof. reflexivity. Qed.
Example ex_abba_found :
  find_deadlock [[Acq (0, 0) Wr; Acq (1, 0) Wr; Rel (1, 0); Rel (0, 0)];
                 [Acq (1, 0) Wr; Acq (0, 0) Wr; Rel (0, 0); Rel (1, 0)]] 100 <> None.
Proof. vm_compute. discriminate. Qed.
