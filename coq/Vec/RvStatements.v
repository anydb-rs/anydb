(* Over the executable checker of RvFindings (`agree`, `disciplined`): the Prop `C04_stmt` (stated, not proved;
   Props/C04.v states it again as C04_full) and the bounded retention count `C16_count_bounded` (vm_compute), which
   the unbounded RvChain.count covers.  Over the model: `commit_directory` (Props: C16_dir). *)
From Anydb Require Import Common.Base Vec.RvBase Vec.RvChangeProofs Vec.RvModel
  Vec.RvRollback Vec.RvInst Vec.RvFindings.

(* C04: every disciplined commit/rollback history (RvFindings.op_disciplined) agrees with the reference *)
Definition C04_stmt : Prop := forall k0 h, disciplined k0 h = true -> agree k0 h = true.
Lemma C04_rollback_of_truncation_covered :
  exists k0 h, disciplined k0 h = true /\ Class_rollback_of_truncation k0 h = true /\ agree k0 h = true.
Proof. exists 3, wit34. exact (proj2 (proj2 (proj2 wit34_agree))). Qed.

(* C16_count, bounded: n commits with increasing stamps (one push before each) under retention k, then
   n + 1 rollbacks: exactly min k n succeed, the next is refused, and every step agrees with the reference *)
Fixpoint commits (n : nat) (from : N) : list w_op :=
  match n with O => [] | S m => Push from :: Commit from :: commits m (from + 1) end.
Fixpoint count_ok_from (s : w_rv) (left_ok : nat) (tries : nat) : bool :=
  match tries with
  | O => true
  | S t =>
    let '(s', r) := u64_step s Rollback in
    match left_ok, r with
    | S l, RUnit => count_ok_from s' l t
    | O, RErr _ => true
    | _, _ => false
    end
  end.
Definition count_ok (k0 : N) (n : nat) : bool :=
  let h := commits n 1 in
  agree k0 (h ++ repeat Rollback (S n)) &&
  count_ok_from (u64_run (w_init k0) h) (Nat.min (N.to_nat k0) n) (S n).
Lemma C16_count_bounded :
  forallb (fun k0 => forallb (count_ok k0) (seq 0 9)) [0; 1; 2; 3; 4; 5; 6; 10] = true.
Proof. vm_compute. reflexivity. Qed.

Section DIR.
Context {T : Type} (tsize : N) (enc : T -> list N) (dec : list N -> T).
Notation rv := (@rv T).

Lemma write_extend_changes (s : rv) : changes (fst (write_extend tsize dec s)) = changes s.
Proof. unfold write_extend. destruct (_ <? _); [destruct (vr_truncate_write _ _ _)|]; reflexivity. Qed.
Lemma write_data_changes (s : rv) : changes (fst (write_data s)) = changes s.
Proof.
  unfold write_data. destruct (negb _); [destruct (vr_truncate_write _ _ _)|destruct (_ <? _); [destruct (vr_truncate _ _)|]];
    reflexivity.
Qed.
Lemma write_updates_changes b (s : rv) : changes (fst (write_updates b s)) = changes s.
Proof.
  unfold write_updates. destruct (updated s); [reflexivity|].
  destruct b; [destruct (write_at_each _ _) as [r' []]|destruct (batch_write_each _ _)]; reflexivity.
Qed.
Lemma write_holes_changes b (s : rv) : changes (fst (write_holes b s)) = changes s.
Proof. unfold write_holes. destruct (holes s), b; try reflexivity. cbn [holes_region set_hsh]. now destruct (holes_region s). Qed.
Lemma rv_write_changes (s : rv) : changes (fst (rv_write tsize dec s)) = changes s.
Proof.
  unfold rv_write. assert (H0 : changes (write_header_if_needed s) = changes s)
    by (unfold write_header_if_needed; now destruct (hdr_modified s)).
  set (s0 := write_header_if_needed s) in *. cbv zeta.
  match goal with |- context [if ?c then _ else _] => destruct c end; [exact H0|].
  pose proof (write_extend_changes s0) as H1. destruct (write_extend tsize dec s0) as [se [e|]]; cbn [fst] in *; [congruence|].
  pose proof (write_data_changes se) as H2. destruct (write_data se) as [s1 [e|]]; cbn [fst] in *; [congruence|].
  pose proof (write_updates_changes (real_stored_len s0 <? stored_len s0) s1) as H3.
  destruct (write_updates _ s1) as [s2 [u|e|]]; cbn [fst] in *; try congruence.
  rewrite write_holes_changes. congruence.
Qed.

(* C16_dir for a whole commit with retention k > 0: at most k records, the new one among them; every other record
   was there before, is older than the new stamp AND not above the stamp the commit started from — whatever a
   rolled-back future left behind is gone *)
Theorem commit_directory (s : rv) st : 0 < k s ->
  exists l, changes (fst (rv_commit tsize enc dec st s)) = Some l /\ len l <= k s /\
    nm_get st l = Some (fst (serialize_raw_changes tsize enc dec s)) /\
    forall x b, In (x, b) l -> (x = st) \/ (x < st /\ x <= stamp s /\ exists l0, changes s = Some l0 /\ In (x, b) l0).
Proof.
  intros Hk. unfold rv_commit. destruct (k s =? 0) eqn:Ek; [lia|].
  destruct (serialize_raw_changes tsize enc dec s) as [data stl] eqn:Es. cbn [fst].
  destruct (save_change_file_bound (changes s) (k s) (stamp s) st data Hk) as (l & Hs & Hl & Hin & Hg).
  set (s1 := set_changes _ (add_stale stl s)).
  assert (Hc1 : changes s1 = Some l) by (unfold s1; cbn; exact Hs).
  unfold stamped_write.
  pose proof (rv_write_changes (update_stamp st s1)) as Hw.
  assert (Hu : changes (update_stamp st s1) = changes s1) by (unfold update_stamp; destruct (stamp s1 =? st); reflexivity).
  destruct (rv_write tsize dec (update_stamp st s1)) as [s2 r] eqn:Ew. cbn [fst] in Hw.
  exists l. split.
  - destruct r as [b|e|]; cbn [fst]; cbn; congruence.
  - split; [exact Hl|]. split; [exact Hg|]. intros x b Hx. destruct (Hin x b Hx) as [[-> _]|(H1 & H2 & H3)]; [now left|right; auto].
Qed.
Theorem commit_k0_is_stamped_write (s : rv) st : k s = 0 -> rv_commit tsize enc dec st s = stamped_write tsize dec st s.
Proof. unfold rv_commit. intros ->. reflexivity. Qed.
End DIR.
