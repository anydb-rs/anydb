(* Vec/RdAgree.v — per vector state, one conjunction (`agree_raw`, `agree_comp`) over the read paths whose
   theorem has the shape "the logical contents restricted to the request": those paths return the same
   answer.  The paths stated otherwise are not in it (raw: collect_holed_range, read_ref_at, read_at_once,
   fold_dirty, fold_stored, VecReader, the lean clone; compressed: ccollect_one_at, cfold_stored, the clone,
   the cursor's get); their theorems are in RdProofs.v and RdCompProofs.v. *)
From Anydb Require Import Common.Base Vec.RdModel Vec.RdCursor Vec.RdComp Vec.RdProofs
  Vec.RdCursorProofs Vec.RdCompProofs.

(* raw vector (BytesVec / ZeroCopyVec), any well-formed state *)
Definition agree_raw (c : rstate) : Prop :=
  (forall from to, good c (read_into_at c from to) (expected c from to))
  /\ (forall from to, good c (fold_range_at c from to) (expected c from to))
  /\ (forall from to, good c (try_fold_range_at c from to) (expected c from to))
  /\ (forall i, good c (collect_one_at c i) (opt_list (expected_one c i)))
  /\ (forall i, good c (get_any c i) (opt_list (view c i)))
  /\ (hole_free c ->
      (forall idx, exists a, read_sorted (raw_rvec c) idx
                             = (ROk (flat_map (fun i => opt_list (expected_one c i)) idx), a)
                             /\ Forall (in_region c) a)
      /\ (forall k, rlen c <= u64_max ->
          exists cu a, cursor_fold (raw_rvec c) cursor_new k = (CList (expected c 0 k), cu, a)
                       /\ cu_pos cu = N.min k (rlen c) /\ Forall (in_region c) a)
      /\ (forall from to, exists d a,
            materialize (raw_rvec c) None = (ROk d, Some (rlen c, d), a) /\ Forall (in_region c) a
            /\ cached_fold d from to = expected c from to /\ cached_read_into d from to = expected c from to
            /\ (forall i, cached_one d i = expected_one c i))).
Theorem agree_raw_proved c : wf c -> agree_raw c.
Proof.
  intros W. unfold agree_raw.
  split; [intros; now apply read_into_at_good|].
  split; [intros; now apply fold_range_at_good|].
  split; [intros; now apply try_fold_range_at_good|].
  split; [intros; now apply collect_one_good|].
  split; [intros; now apply get_any_good|].
  intros Hh. split; [intros; now apply raw_read_sorted|].
  split; [intros; now apply raw_cursor_fold|intros; now apply raw_cached_fresh].
Qed.

(* compressed vector (PcoVec / LZ4Vec / ZstdVec), any well-formed state whose pages fit the IO buffer *)
Definition agree_comp (c : cstate) : Prop :=
  (forall from to, cgood c (cread_into_at c from to) (cexpected c from to))
  /\ (forall strict from to, cgood c (cfold_range_at strict c from to) (cexpected c from to))
  /\ (forall idx, exists a, read_sorted (comp_rvec c) idx = (ROk (flat_map (fun i => opt_list (cview c i)) idx), a)
                            /\ Forall (in_cregion c) a)
  /\ (forall k, clen c <= u64_max ->
      exists cu a, cursor_fold (comp_rvec c) cursor_new k = (CList (cexpected c 0 k), cu, a)
                   /\ cu_pos cu = N.min k (clen c) /\ Forall (in_cregion c) a)
  /\ (forall from to, exists d a,
        materialize (comp_rvec c) None = (ROk d, Some (clen c, d), a) /\ Forall (in_cregion c) a
        /\ cached_fold d from to = cexpected c from to /\ cached_read_into d from to = cexpected c from to).
Theorem agree_comp_proved c : cwf c -> io_sized c -> agree_comp c.
Proof.
  intros W Hio. unfold agree_comp.
  split; [intros; now apply cread_into_at_good|].
  split; [intros; now apply cfold_range_at_good|].
  split; [intros; now apply comp_read_sorted|].
  split; [intros; now apply comp_cursor_fold|intros; now apply comp_cached_fresh].
Qed.
