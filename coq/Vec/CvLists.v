(* Vec/CvLists.v — list facts in the N-indexed vocabulary of Common/Base.v that only the compressed-vector proofs
   (CvPagesProofs, CvInv, CvFaultProofs) need; what a second layer comes to use belongs in Common/ListFacts.v. *)
From Anydb Require Import Common.Base Common.ListFacts.

Lemma take_0 {A} (l : list A) : take 0 l = [].
Proof. reflexivity. Qed.
Lemma take_nil {A} k : take k (@nil A) = [].
Proof. apply firstn_nil. Qed.
Lemma take_min {A} k (l : list A) : take (N.min k (len l)) l = take k l.
Proof. destruct (N.le_gt_cases k (len l)); [now rewrite N.min_l|]. rewrite N.min_r, !take_all; auto; lia. Qed.
Lemma take_take_min {A} n m (l : list A) : take n (take m l) = take (N.min n m) l.
Proof. unfold take. rewrite firstn_firstn. f_equal. lia. Qed.

Lemma take_app_split {A} k (a b : list A) : take k (a ++ b) = take k a ++ take (k - len a) b.
Proof. unfold take, len. rewrite firstn_app. do 2 f_equal. lia. Qed.
Lemma drop_app_split {A} k (a b : list A) : drop k (a ++ b) = drop k a ++ drop (k - len a) b.
Proof. unfold drop, len. rewrite skipn_app. do 2 f_equal. lia. Qed.

Lemma drop_take {A} k m (l : list A) : k <= m -> drop k (take m l) = take (m - k) (drop k l).
Proof. intros H. unfold drop, take. rewrite skipn_firstn_comm. f_equal. lia. Qed.

Lemma slice_nil {A} a b : slice a b (@nil A) = [].
Proof. unfold slice, take, drop. now rewrite skipn_nil, firstn_nil. Qed.
Lemma slice_empty {A} a b (l : list A) : b <= a -> slice a b l = [].
Proof. intros. unfold slice. now replace (b - a) with 0 by lia. Qed.
Lemma slice_app {A} a b (x y : list A) :
  slice a b (x ++ y) = slice a b x ++ slice (a - len x) (b - len x) y.
Proof.
  unfold slice. rewrite drop_app_split, take_app_split, len_drop. do 2 f_equal. lia.
Qed.
Lemma slice_min {A} a b (x : list A) : slice a (N.min b (len x)) x = slice a b x.
Proof.
  unfold slice. rewrite <- (take_min (b - a)), <- (take_min (N.min _ _ - a)), len_drop. f_equal. lia.
Qed.
Lemma take_slice {A} a b (l : list A) : a <= b -> take a l ++ slice a b l = take b l.
Proof.
  intros H. unfold slice. rewrite <- (take_drop a l) at 3. rewrite take_app_split, len_take.
  destruct (N.le_gt_cases a (len l)).
  - rewrite (take_all b (take a l)) by (rewrite len_take; lia). now rewrite N.min_l.
  - rewrite (drop_all a l), !take_nil, !app_nil_r by lia. symmetry. apply take_all. rewrite len_take. lia.
Qed.

Lemma list_snoc_cases {A} (l : list A) : l = [] \/ exists l' x, l = l' ++ [x].
Proof.
  destruct l as [|a l]; [now left|right].
  destruct (exists_last (l := a :: l)) as (l' & x & E); [discriminate|]. eauto.
Qed.

Lemma match_app {A} (h t : list A) : match h with [] => t | _ :: _ => h ++ t end = h ++ t.
Proof. now destruct h. Qed.

Lemma Forall_drop {A} (P : A -> Prop) n l : Forall P l -> Forall P (drop n l).
Proof. intros H. rewrite <- (take_drop n l) in H. now apply Forall_app in H. Qed.

Lemma filter_filter_le a b (l : list N) : a <= b ->
  filter (fun x => x <=? a) (filter (fun x => x <=? b) l) = filter (fun x => x <=? a) l.
Proof.
  intros Hab. induction l as [|x l IHl]; [reflexivity|]. cbn [filter].
  destruct (N.leb_spec x b); cbn [filter]; [now rewrite IHl|].
  destruct (N.leb_spec x a); [lia|exact IHl].
Qed.

Lemma map_fst_filter {A B} (f : A -> bool) (l : list (A * B)) :
  map fst (filter (fun x => f (fst x)) l) = filter f (map fst l).
Proof.
  induction l as [|[k v] t IH]; [reflexivity|]. cbn [filter map fst].
  destruct (f k); cbn [map fst]; now rewrite IH.
Qed.

Lemma NoDup_app_snoc {A} (l : list A) x : NoDup l -> ~ In x l -> NoDup (l ++ [x]).
Proof.
  intros Hl Hx. apply NoDup_rev in Hl. rewrite <- (rev_involutive (l ++ [x])). apply NoDup_rev.
  rewrite rev_app_distr. cbn. constructor; [now rewrite <- in_rev|exact Hl].
Qed.

Lemma NoDup_drop {A} n (l : list A) : NoDup l -> NoDup (drop n l).
Proof.
  unfold drop. generalize (N.to_nat n). clear n. induction l as [|x l IH]; intros n H; [now rewrite skipn_nil|].
  destruct n as [|n]; [exact H|]. apply IH. now inversion H.
Qed.

Lemma pages_bound p q r l v : 0 < p -> v <= l * p -> q * p + r <= v -> q <= l.
Proof. nia. Qed.
Lemma div_window p x : 0 < p -> x / p * p <= x < (x / p + 1) * p.
Proof. intros. pose proof (N.div_mod' x p). pose proof (N.mod_lt x p). nia. Qed.
