(* What holds of rollback from ANY model state: a refused single rollback leaves the whole state untouched
   (`rollback_cases`), and a rollback_before, refused or not, stands on a state reached by successive successful
   single rollbacks (`rollbacks_ok`).
   The theorems Props/C16.v quotes take the element encoder as an argument (`Proof using tsize enc dec`) although
   rollback does not use it; the lemmas they rest on do not. *)
From Anydb Require Import Common.Base Vec.RvBase Vec.RvChange
  Vec.RvChangeProofs Vec.RvModel Vec.RvFacts Vec.RvRollback.

Set Default Proof Using "Type".

Section ANY_STATE.
Context {T : Type} (tsize : N) (enc : T -> list N) (dec : list N -> T).
Notation rv := (@rv T).

Lemma apply_mods_ok mods (s : rv) : (forall m, In m mods -> fst m < rlen s) ->
  exists s', apply_mods mods s = (s', Ok tt).
Proof.
  revert s; induction mods as [|[i v] t IH]; intros s H; cbn [apply_mods]; [eauto|].
  destruct (update_at_ok i v s (H (i, v) (or_introl eq_refl))) as (s1 & -> & Hs & Hp).
  apply IH. intros m Hm. unfold rlen in *. rewrite Hs, Hp. apply H. now right.
Qed.

(* undo_changes validates the whole record before the first mutation: it either refuses with the state
   untouched, or succeeds *)
Lemma undo_changes_cases bytes (s : rv) :
  (exists e, undo_changes tsize dec bytes s = (s, Err e)) \/ exists s', undo_changes tsize dec bytes s = (s', Ok tt).
Proof.
  unfold undo_changes. pose proof (parse_never_panics tsize dec bytes) as Hp.
  destruct (parse_raw_change_data tsize dec bytes) as [rcd|e0|]; [|left; eauto|congruence].
  destruct (stored_len s <? _); [left; eauto|]. destruct (existsb _ (rcd_mods rcd)) eqn:Ex; [left; eauto|].
  match goal with |- context [apply_mods ?m ?st] => destruct (apply_mods_ok m st) as [s5 ->] end; [|right; eauto].
  intros m Hm. unfold rlen. cbn.
  destruct (N.leb_spec (cd_prev_stored_len (rcd_base rcd) + len (cd_prev_pushed (rcd_base rcd))) (fst m)) as [Hle|]; [|assumption].
  rewrite (proj2 (existsb_exists _ _)) in Ex; [discriminate|]. exists m. split; [exact Hm|]. now apply N.leb_le.
Qed.

Lemma rollback_cases (s : rv) :
  (exists e, rv_rollback tsize dec s = (s, Err e)) \/ exists s', rv_rollback tsize dec s = (s', Ok tt).
Proof.
  unfold rv_rollback, read_change_file.
  destruct (changes s) as [l|]; [destruct (nm_get (stamp s) l) as [bytes|]|]; try (left; eauto; fail).
  destruct (undo_changes_cases bytes s) as [[e ->]|[s1 ->]]; eauto.
Qed.

(* C16_fail_single *)
Theorem rollback_refused_unchanged (s s' : rv) e : rv_rollback tsize dec s = (s', Err e) -> s' = s.
Proof using tsize enc dec. destruct (rollback_cases s) as [[e0 ->]|[s1 ->]]; congruence. Qed.

Theorem rollback_never_panics (s : rv) : snd (rv_rollback tsize dec s) <> Panic.
Proof using tsize enc dec. destruct (rollback_cases s) as [[e0 ->]|[s1 ->]]; discriminate. Qed.

Theorem rollback_missing_record (s : rv) :
  read_change_file (changes s) (stamp s) = Err EIO -> rv_rollback tsize dec s = (s, Err EIO).
Proof. unfold rv_rollback. intros ->. reflexivity. Qed.

Inductive rollbacks_ok : nat -> rv -> rv -> Prop :=
| rbo_0 s : rollbacks_ok 0 s s
| rbo_S n s s1 s' : rv_rollback tsize dec s = (s1, Ok tt) -> rollbacks_ok n s1 s' -> rollbacks_ok (S n) s s'.

Lemma rb_loop_reach files target (s s' : rv) r :
  rb_loop tsize dec files target s = (s', r) -> r <> Panic /\ exists n, (n <= length files)%nat /\ rollbacks_ok n s s'.
Proof.
  (* wherever the loop stops, it stops on the state it has with a result that is not a panic *)
  assert (Stop : forall (l : list N) s0 (r0 : res verr unit), r0 <> Panic -> (s0, r0) = (s', r) ->
                 r <> Panic /\ exists n, (n <= length l)%nat /\ rollbacks_ok n s0 s').
  { intros l s0 r0 Hr [= <- <-]. split; [exact Hr|]. exists O. split; [apply Nat.le_0_l|constructor]. }
  revert s; induction files as [|f t IH]; intros s; cbn [rb_loop]; [apply Stop; discriminate|].
  destruct (stamp s <? target); [apply Stop; discriminate|].
  destruct (negb (f =? stamp s)); [apply Stop; discriminate|].
  destruct (rollback_cases s) as [[e ->]|[s1 E]]; [apply Stop; discriminate|].
  rewrite E. intros H. destruct (IH s1 H) as (Hp & n & Hn & Hr). split; [exact Hp|]. exists (S n). split; [cbn; lia|].
  econstructor; eauto.
Qed.

Lemma rollback_before_reach target (s : rv) :
  exists n s', rollbacks_ok n s s' /\
    (rv_rollback_before tsize dec target s = (s', Ok (stamp s')) \/ exists e, rv_rollback_before tsize dec target s = (s', Err e)).
Proof.
  unfold rv_rollback_before, find_rollback_files. destruct (changes s) as [l|]; [|exists O, s; split; [constructor|eauto]].
  destruct (rb_loop _ _ _ _ _) as [s1 r] eqn:E. destruct (rb_loop_reach _ _ _ _ _ E) as (Hp & n & _ & Hr).
  exists n, s1. split; [exact Hr|]. destruct r as [[]|e|]; [now left|eauto|contradiction].
Qed.

(* C16_fail_before (structural form) *)
Theorem rollback_before_refused_reach target (s s' : rv) e :
  rv_rollback_before tsize dec target s = (s', Err e) -> exists n, rollbacks_ok n s s'.
Proof using tsize enc dec.
  destruct (rollback_before_reach target s) as (n & s1 & Hr & [->|[e' ->]]); [discriminate|]. intros [= <- _]. eauto.
Qed.

Theorem rollback_before_ok_reach target (s s' : rv) st :
  rv_rollback_before tsize dec target s = (s', Ok st) ->
  exists n, rollbacks_ok n s s' /\ st = stamp s'.
Proof using tsize enc dec.
  destruct (rollback_before_reach target s) as (n & s1 & Hr & [->|[e' ->]]); [|discriminate]. intros [= <- <-]. eauto.
Qed.

Theorem rollback_before_never_panics target (s : rv) : snd (rv_rollback_before tsize dec target s) <> Panic.
Proof using tsize enc dec. destruct (rollback_before_reach target s) as (n & s1 & _ & [->|[e ->]]); discriminate. Qed.
End ANY_STATE.

Section ROUND_TRIP.
Context {T : Type} (tsize : N) (enc : T -> list N) (dec : list N -> T).
Hypothesis tsize_pos : 0 < tsize.
Hypothesis enc_len : forall v, len (enc v) = tsize.
Hypothesis dec_enc : forall v, dec (enc v) = v.
Notation rv := (@rv T).

Theorem rollback_truncated_record (s : rv) l r n :
  changes s = Some l -> nm_get (stamp s) l = Some (take n (serialize_record enc r)) ->
  valid_record enc r -> n < len (serialize_record enc r) ->
  exists e, rv_rollback tsize dec s = (s, Err e).
Proof using tsize_pos enc_len dec_enc.
  intros Hc Hg Hv Hn. unfold rv_rollback, read_change_file. rewrite Hc, Hg.
  destruct (prefix_rejected tsize enc dec tsize_pos enc_len dec_enc r n Hv Hn) as [e He].
  exists e. unfold undo_changes. rewrite He. reflexivity.
Qed.
End ROUND_TRIP.
