(* The regenerated step order of ChangeCursor::read_values (a) computes exactly the hand-written model
   cur_read_values that every C16/C04 parser theorem is about, and (b) never asks for more memory than
   the input holds. *)
From Anydb Require Import Common.Base Vec.RvChange Gen.CursorOrder Vec.RvCursorOrder.

Lemma length_chunks {A} fuel w (l : list A) : (length (chunks fuel w l) <= fuel)%nat.
Proof.
  revert l; induction fuel as [|f IH]; intros l; cbn [chunks length]; [lia|].
  destruct l as [|x l]; cbn [length]; [lia|]. specialize (IH (skipn w (x :: l))). lia.
Qed.

Lemma read_values_src_is_model {A} (c : cursor) (count w : N) (rd : list N -> A) :
  fst (read_values_src c count w rd) = cur_read_values c count w rd.
Proof.
  unfold read_values_src, read_values_steps, cur_read_values. cbn [rv_interp rs_total rs_vals rs_cur rs_alloc].
  destruct (checked_mul64 w count) as [t|] eqn:Hm; [|reflexivity].
  cbn [rv_interp rs_total rs_vals rs_cur rs_alloc].
  unfold check_remaining.
  destruct (two64 <=? c_pos c + t) eqn:H1; [reflexivity|].
  destruct (len (c_bytes c) <? c_pos c + t) eqn:H2; [reflexivity|].
  cbn [bind rv_interp rs_total rs_vals rs_cur rs_alloc]. reflexivity.
Qed.

Lemma read_values_src_alloc_bounded {A} (c : cursor) (count w : N) (rd : list N -> A) :
  snd (read_values_src c count w rd) <= len (c_bytes c) - c_pos c.
Proof.
  unfold read_values_src, read_values_steps. cbn [rv_interp rs_total rs_vals rs_cur rs_alloc].
  destruct (checked_mul64 w count) as [t|] eqn:Hm; [|cbn [snd]; lia].
  cbn [rv_interp rs_total rs_vals rs_cur rs_alloc].
  unfold check_remaining.
  destruct (two64 <=? c_pos c + t) eqn:H1; [cbn [snd]; lia|].
  destruct (len (c_bytes c) <? c_pos c + t) eqn:H2; [cbn [snd]; lia|].
  cbn [bind rv_interp rs_total rs_vals rs_cur rs_alloc snd].
  unfold checked_mul64 in Hm. destruct (two64 <=? w * count) eqn:H3; [discriminate|]. injection Hm as <-.
  unfold len at 1. rewrite map_length.
  pose proof (length_chunks (N.to_nat count) (N.to_nat w)
                (slice (c_pos c) (c_pos c + w * count) (c_bytes c))) as Hl.
  assert (N.of_nat (length (chunks (N.to_nat count) (N.to_nat w)
            (slice (c_pos c) (c_pos c + w * count) (c_bytes c)))) <= count) by lia.
  nia.
Qed.

(* an order that sizes the buffer from the count BEFORE the bounds check does not have the property:
   a 16-byte input can make it ask for 2^40 bytes *)
Lemma alloc_before_check_unbounded :
  exists (c : cursor) (count w : N),
    len (c_bytes c) - c_pos c < snd (rv_interp [SMul; SAllocCount; SCheck; SCollect; SAdvance; SRet] count w
                                      (fun _ : list N => tt) (mkRvS None [] c 0)).
Proof. exists (mkCur (repeat 0 16) 0), 137438953472, 8. vm_compute. reflexivity. Qed.
