(* Vec/CvCodec.v — the reading side of CvModel on bytes its writing side laid out: decode_vals on
   values_to_bytes (`decode_vals_bytes`), and parse_change on the layout `CvFault.record_bytes` of
   serialize_changes (`parse_record`); lookups in the change directory. *)
From Anydb Require Import Common.Base Common.LE Common.ListFacts
  Vec.CvRegion Vec.CvPages Vec.CvModel Vec.CvFault.

Lemma map_cell_byte_CB l : map cell_byte (map CB l) = l.
Proof. rewrite map_map. apply map_id. Qed.

Lemma len_u64b v : len (u64b v) = 8.
Proof. apply len_le_enc. Qed.

Lemma check_remaining_ok b p n : check_remaining (b, p) n = Ok tt -> p + n < two64 /\ n <= len b.
Proof.
  unfold check_remaining. cbn [fst snd]. destruct (N.leb_spec two64 (p + n)); [discriminate|].
  destruct (N.ltb_spec (len b) n); [discriminate|]. auto.
Qed.
Lemma check_remaining_intro b p n : p + n < two64 -> n <= len b -> check_remaining (b, p) n = Ok tt.
Proof.
  intros. unfold check_remaining. cbn [fst snd].
  destruct (N.leb_spec two64 (p + n)); [lia|]. destruct (N.ltb_spec (len b) n); [lia|]. reflexivity.
Qed.
Lemma check_remaining_short b p m n : p + n < two64 -> m < n -> check_remaining (take m b, p) n = Err EWrongLength.
Proof.
  intros. unfold check_remaining. cbn [fst snd]. rewrite len_take.
  destruct (N.leb_spec two64 (p + n)); [lia|]. destruct (N.ltb_spec (N.min m (len b)) n); [reflexivity|lia].
Qed.
Lemma check_remaining_np c n : check_remaining c n <> Panic.
Proof. unfold check_remaining. destruct (two64 <=? _); [discriminate|]. destruct (_ <? _); discriminate. Qed.

Lemma rd_u64_app v rest pos : v < two64 -> pos + 8 < two64 ->
  rd_u64 (u64b v ++ rest, pos) = Ok (v, (rest, pos + 8)).
Proof.
  intros Hv Hp. unfold rd_u64. rewrite check_remaining_intro; [|exact Hp|rewrite len_app, len_u64b; lia].
  cbn [bind fst snd]. rewrite take_app_exact, drop_app_exact by (now rewrite len_u64b).
  unfold u64b. fold enc_u64. now rewrite dec_enc_u64.
Qed.

Lemma rd_skip_app (x rest : list N) pos : pos + len x < two64 ->
  rd_skip (x ++ rest, pos) (len x) = Ok (rest, pos + len x).
Proof.
  intros Hp. unfold rd_skip. rewrite check_remaining_intro; [|exact Hp|rewrite len_app; lia].
  cbn [bind fst snd]. now rewrite drop_app_exact.
Qed.

Lemma lookup_app_last dir st d :
  Forall (fun f => fst f <> st) dir -> lookup_file (dir ++ [(st, d)]) st = Some d.
Proof.
  induction 1 as [|[k v] t Hk Ht IH]; cbn [app lookup_file]; [now rewrite N.eqb_refl|].
  now destruct (N.eqb_spec k st).
Qed.

Lemma lookup_in dir k v : lookup_file dir k = Some v -> In (k, v) dir.
Proof.
  induction dir as [|[k' v'] t IH]; cbn [lookup_file]; [discriminate|].
  destruct (N.eqb_spec k' k) as [->|]; intros H; [left; congruence|right; auto].
Qed.
Lemma in_lookup {dir k v} : NoDup (map fst dir) -> In (k, v) dir -> lookup_file dir k = Some v.
Proof.
  induction dir as [|[k' v'] t IH]; cbn [map fst lookup_file]; intros Hn Hi; [contradiction|].
  inversion Hn as [|? ? Hnk Hnt]; subst. destruct Hi as [Hi|Hi].
  - inversion Hi; subst. now rewrite N.eqb_refl.
  - destruct (N.eqb_spec k' k) as [->|]; [|auto].
    exfalso. apply Hnk. apply in_map_iff. now exists (k, v).
Qed.

Section Codec.
  Variable T : Type.
  Variable size : N.
  Variable enc : T -> list N.
  Hypothesis enc_len : forall t, len (enc t) = size.

  Notation values_to_bytes := (values_to_bytes T enc).

  Lemma values_to_bytes_app a b : values_to_bytes (a ++ b) = values_to_bytes a ++ values_to_bytes b.
  Proof. apply flat_map_app. Qed.

  Lemma len_values_to_bytes l : len (values_to_bytes l) = len l * size.
  Proof. unfold CvModel.values_to_bytes. rewrite (len_flat_map enc size) by (intros; apply enc_len). lia. Qed.

  Variable dec : list N -> T.
  Hypothesis dec_enc : forall t, dec (enc t) = t.

  Lemma decode_vals_bytes l rest : decode_vals T size dec (length l) (values_to_bytes l ++ rest) = l.
  Proof.
    induction l as [|t l IH]; [reflexivity|].
    change (values_to_bytes (t :: l)) with (enc t ++ values_to_bytes l). cbn [length decode_vals].
    rewrite <- app_assoc, take_app_exact, drop_app_exact by (now rewrite enc_len).
    now rewrite dec_enc, IH.
  Qed.

  Lemma rd_values_app l rest pos : pos + size * len l < two64 ->
    rd_values T size dec (values_to_bytes l ++ rest, pos) (len l) = Ok (l, (rest, pos + size * len l)).
  Proof.
    intros Hp. unfold rd_values.
    assert (L : len (values_to_bytes l) = size * len l) by (rewrite len_values_to_bytes; lia).
    destruct (N.leb_spec two64 (size * len l)); [lia|].
    rewrite check_remaining_intro; [|exact Hp|rewrite len_app, L; lia].
    cbn [bind fst snd]. rewrite take_app_exact, drop_app_exact by (now rewrite L).
    unfold len at 1. rewrite Nat2N.id, <- (app_nil_r (values_to_bytes l)). now rewrite decode_vals_bytes.
  Qed.

  Hypothesis size_pos : 0 < size.

  (* parse_change_data on a record laid out as serialize_changes lays it out (base/rollback.rs:18), whatever its
     three leading fields hold.  Props/C17compchange quotes it as CvFaultProofs.comp_parse_record, Props/C16comp its
     Ok branch as CvInv.parse_ser; CvInv.ser_bytes_record ties the bytes a state serializes to this layout *)
  Lemma parse_record stamp psl sl tv pp pu :
    stamp < two64 -> psl < two64 -> sl < two64 ->
    48 + size * len tv + size * len pp + size * len pu < two64 ->
    parse_change T size dec (record_bytes T enc stamp psl sl tv pp pu) =
      if psl <? len tv then Err EUnderflow else Ok (mkChange T stamp psl (psl - len tv) tv pp).
  Proof.
    intros Ha Hb Hc Hfit. unfold parse_change, record_bytes.
    assert (F1 : len tv < two64) by nia.
    assert (F2 : len pp < two64) by nia.
    assert (F3 : len pu < two64) by nia.
    rewrite rd_u64_app by lia. cbn [bind]. cbv beta iota.
    rewrite rd_u64_app by lia. cbn [bind]. cbv beta iota.
    rewrite <- (len_u64b sl) at 2. rewrite rd_skip_app by (rewrite len_u64b; lia). cbn [bind].
    rewrite len_u64b, rd_u64_app by lia. cbn [bind]. cbv beta iota.
    destruct (psl <? len tv); [reflexivity|].
    rewrite rd_values_app by lia. cbn [bind]. cbv beta iota.
    rewrite rd_u64_app by lia. cbn [bind]. cbv beta iota.
    rewrite rd_values_app by lia. cbn [bind]. cbv beta iota.
    rewrite rd_u64_app by lia. cbn [bind]. cbv beta iota.
    destruct (N.leb_spec two64 (size * len pu)); [lia|].
    rewrite <- (app_nil_r (values_to_bytes pu)).
    replace (size * len pu) with (len (values_to_bytes pu)) by (rewrite len_values_to_bytes; lia).
    rewrite rd_skip_app by (rewrite len_values_to_bytes; lia). reflexivity.
  Qed.
End Codec.

Arguments values_to_bytes_app {T} enc a b.
Arguments len_values_to_bytes {T size enc} enc_len l.
Arguments decode_vals_bytes {T size enc} enc_len {dec} dec_enc l rest.
