(* Vec/CvRegion.v — the ABSTRACT rawdb region the compressed-vector model (C07, compressed half
   of C03) is layered on: a byte vector with rawdb's three mutators `r_write_at`, `r_truncate`,
   `r_truncate_write` and their error rules (crates/rawdb/src/region.rs:65 write_at, :115 truncate,
   :137 truncate_write, :142 write_with).  That the concrete allocator refines exactly this interface is C01's business.

   Elements: the pages region holds plain bytes (N below 256); the data region holds `cell`s.
   A cell is a byte, or — only ever produced by the *executable stand-in* for the external
   compressor (CvInst.v) — an opaque blob occupying one byte position.  The real compressors
   produce `CB` cells only; the theorems quantify over every `compress` into `list cell`. *)
From Anydb Require Import Common.Base Common.ListFacts Gen.Consts.

Inductive cell := CB (b : N) | CX (payload : list N).

Definition cell_byte (c : cell) : N := match c with CB b => b | CX _ => 0 end.

Inductive rerr := WriteOutOfBounds | TruncateInvalid.

(* region.rs:142 write_with.  `at_ > len` -> WriteOutOfBounds; growth beyond MAX_RESERVED_SIZE trips
   the assertion of RegionMetadata::set_reserved (region_metadata.rs:92) = Panic. *)
Definition r_write_at {A} (r : list A) (bs : list A) (at_ : N) : res rerr (list A) :=
  if len r <? at_ then Err WriteOutOfBounds
  else if MAX_RESERVED_SIZE <? N.max (at_ + len bs) (len r) then Panic
  else Ok (take at_ r ++ bs ++ drop (at_ + len bs) r).

(* region.rs:115-133 *)
Definition r_truncate {A} (r : list A) (n : N) : res rerr (list A) :=
  if len r <? n then Err TruncateInvalid else Ok (take n r).

(* region.rs:137 = write_with(data, Some(at), truncate = true): new length = at + |data| *)
Definition r_truncate_write {A} (r : list A) (at_ : N) (bs : list A) : res rerr (list A) :=
  if len r <? at_ then Err WriteOutOfBounds
  else if MAX_RESERVED_SIZE <? at_ + len bs then Panic
  else Ok (take at_ r ++ bs).

Lemma r_truncate_write_ok {A} (r : list A) at_ bs r' :
  r_truncate_write r at_ bs = Ok r' ->
  at_ <= len r /\ r' = take at_ r ++ bs /\ len r' = at_ + len bs /\ len r' <= MAX_RESERVED_SIZE.
Proof.
  unfold r_truncate_write. destruct (len r <? at_) eqn:E1; [discriminate|].
  destruct (MAX_RESERVED_SIZE <? at_ + len bs) eqn:E2; [discriminate|].
  intros H; inversion H; subst. repeat split; try lia.
  all: rewrite len_app, len_take; lia.
Qed.

Lemma r_write_at_ok {A} (r : list A) at_ bs r' :
  r_write_at r bs at_ = Ok r' ->
  at_ <= len r /\ r' = take at_ r ++ bs ++ drop (at_ + len bs) r /\
  len r' = N.max (at_ + len bs) (len r) /\ len r' <= MAX_RESERVED_SIZE.
Proof.
  unfold r_write_at. destruct (len r <? at_) eqn:E1; [discriminate|].
  destruct (MAX_RESERVED_SIZE <? _) eqn:E2; [discriminate|].
  intros H; inversion H; subst.
  assert (L : len (take at_ r ++ bs ++ drop (at_ + len bs) r) = N.max (at_ + len bs) (len r)).
  { rewrite !len_app, len_take, len_drop. lia. }
  repeat split; try lia.
Qed.

Lemma r_write_at_intro {A} (r bs : list A) at_ :
  at_ <= len r -> N.max (at_ + len bs) (len r) <= MAX_RESERVED_SIZE ->
  r_write_at r bs at_ = Ok (take at_ r ++ bs ++ drop (at_ + len bs) r).
Proof.
  intros. unfold r_write_at. destruct (N.ltb_spec (len r) at_); [lia|].
  destruct (N.ltb_spec MAX_RESERVED_SIZE (N.max (at_ + len bs) (len r))); [lia|reflexivity].
Qed.

Lemma r_truncate_write_intro {A} (r bs : list A) at_ : at_ <= len r ->
  r_truncate_write r at_ bs = if MAX_RESERVED_SIZE <? at_ + len bs then Panic else Ok (take at_ r ++ bs).
Proof. intros. unfold r_truncate_write. destruct (N.ltb_spec (len r) at_); [lia|reflexivity]. Qed.

(* bytes written again where they are can be left out of the write *)
Lemma r_truncate_write_app {A} (r x y : list A) :
  r_truncate_write (r ++ x) (len r) (x ++ y) = r_truncate_write (r ++ x) (len (r ++ x)) y.
Proof.
  rewrite !r_truncate_write_intro by (rewrite ?len_app; lia).
  now rewrite (take_all (len (r ++ x))), take_app_exact, !len_app, N.add_assoc, app_assoc.
Qed.
