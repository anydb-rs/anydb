(* Vec/RdCursorProofs.v — the generic layers (Cursor, default read_sorted_into_at, CachedVec) over any
   vector whose read_into_at is correct (`Hread`) and whose logical contents have no deleted slot (`Hfull`).
   `Inv cu`: the cursor's buffer holds an aligned chunk of the contents; from any cursor with Inv, get /
   next / fold and the sorted read return the elements and keep Inv (`cursor_get_spec`, `read_sorted_spec`,
   `cursor_fold_spec`); a CachedVec just filled from the vector reads the same (`cached_fresh`).  Section Raw
   instantiates them with the raw vector (`hole_free` well-formed states, rollback overlay included).
   With a deleted slot the statements are refuted (RdRefuted, `w_holed`: panic, wrong element, hang).
   Cursor and the default read_sorted_into_at of cursor.rs / traits/readable.rs are modelled a second time,
   as `res`-valued functions without the fetch events, in Lazy/LazyBase.v for C15, with a theory over the
   same three premises (Lazy/LazyBaseProofs.v, Section CursorSpec, invariant `cinv`, also a
   `cursor_get_spec`): a change to cursor.rs concerns both. *)
From Anydb Require Import Common.Base Common.ListFacts Gen.Consts Vec.RdModel Vec.RdCursor Vec.RdProofs.

(* A section lemma asks for every hypothesis its proof term mentions, and `lia` mentions all that are left
   in the context.  So each proof of Section Generic names the hypotheses it needs (`Proof using`) and
   clears the others first; advance_inv and cached_sorted_fresh are stated for the vectors of the section,
   all three hypotheses included. *)
Set Default Proof Using "Type".

Definition CH := READ_CHUNK_SIZE.
Lemma CH_pos : 0 < CH. Proof. reflexivity. Qed.
(* Chunk starts are the multiples of CH, and two of them less than CH apart coincide: this is all
   the loops below need to know about `at / CH * CH`. *)
Definition aligned (s : N) : Prop := exists q, s = q * CH.
Lemma aligned_unique s s' : aligned s -> aligned s' -> s < s' + CH -> s' < s + CH -> s = s'.
Proof.
  intros [q ->] [q' ->] H H'. f_equal.
  assert (q < q' + 1) by (apply (N.mul_lt_mono_pos_r CH); [exact CH_pos|lia]).
  assert (q' < q + 1) by (apply (N.mul_lt_mono_pos_r CH); [exact CH_pos|lia]). lia.
Qed.
Lemma aligned_next s : aligned s -> aligned (s + CH).
Proof. intros [q ->]. exists (q + 1). lia. Qed.

Section Generic.
  Variable v : rvec.
  Variable elem : N -> option N.          (* the logical contents *)
  Variable P : acc -> Prop.               (* where fetched byte ranges must lie *)
  Let n := v_len v.
  Definition E (k : N) : list N := opt_list (elem k).
  Hypothesis Hfull : forall k, k < n -> elem k <> None.
  Hypothesis Hout : forall k, n <= k -> elem k = None.
  Hypothesis Hread : forall f t,
    goodP P (v_read_into v f t) (flat_map E (seqN (N.min f n) (N.to_nat (N.min t n - N.min f n)))).

  Lemma elem_full k : k < n -> exists x, elem k = Some x.
  Proof using Hfull. intros Hk. destruct (elem k) eqn:Ek; [eauto|]. now apply Hfull in Ek. Qed.

  Lemma singles_len : forall m a, a + N.of_nat m <= n -> len (flat_map E (seqN a m)) = N.of_nat m.
  Proof using Hfull. clear Hout Hread.
    induction m; intros a H; cbn [seqN flat_map]; [reflexivity|].
    destruct (elem_full a) as [x Ea]; [lia|]. unfold E at 1.
    rewrite Ea, len_app, IHm by lia. cbn [opt_list]. rewrite len_cons, len_nil. lia.
  Qed.
  Lemma singles_get : forall m a k, a + N.of_nat m <= n -> k < N.of_nat m ->
    get (flat_map E (seqN a m)) k = elem (a + k).
  Proof using Hfull. clear Hout Hread.
    induction m; intros a k H Hk; [lia|]. cbn [seqN flat_map].
    destruct (elem_full a) as [x Ea]; [lia|]. unfold E at 1. rewrite Ea.
    cbn [opt_list app]. rewrite get_cons. destruct (N.eqb_spec k 0) as [->|Hk0].
    - now rewrite N.add_0_r.
    - rewrite IHm by lia. f_equal. lia.
  Qed.

  Lemma read_good a b : a <= b -> b <= n -> goodP P (v_read_into v a b) (range E a b).
  Proof using Hread. clear Hfull Hout. intros. pose proof (Hread a b) as G. now rewrite (N.min_l a), (N.min_l b) in G by lia. Qed.

  Definition Inv (c : cursor) : Prop :=
    (forall k, k < len (cu_buf c) -> get (cu_buf c) k = elem (cu_start c + k))
    /\ cu_start c + len (cu_buf c) <= n
    /\ (cu_buf c = [] \/ (cu_start c = cu_start c / CH * CH
                          /\ cu_start c + len (cu_buf c) = N.min (cu_start c + CH) n)).
  Lemma Inv_new : Inv cursor_new.
  Proof. clear Hfull Hout Hread. unfold Inv, cursor_new; cbn [cu_buf cu_start cu_pos]. rewrite len_nil. split; [intros; lia|split; [lia|auto]]. Qed.
  Lemma Inv_pos c p : Inv c -> Inv {| cu_buf := cu_buf c; cu_start := cu_start c; cu_pos := p |}.
  Proof. auto. Qed.
  Lemma Inv_chunk c : Inv c -> cu_buf c <> [] ->
    aligned (cu_start c) /\ cu_start c + len (cu_buf c) = N.min (cu_start c + CH) n.
  Proof. intros (_ & _ & [Hn|[Ha He]]) Hne; [contradiction|]. split; [now exists (cu_start c / CH)|exact He]. Qed.

  Lemma ensure_spec c at_ : Inv c -> at_ < n ->
    exists c' a, ensure v c at_ = (ELocal (at_ - cu_start c') c', c', a)
      /\ Inv c' /\ cu_pos c' = cu_pos c
      /\ cu_start c' <= at_ /\ at_ < cu_start c' + len (cu_buf c')
      /\ Forall P a.
  Proof using Hfull Hread. clear Hout.
    intros I Hat. unfold ensure. fold n. change READ_CHUNK_SIZE with CH. replace (n <=? at_) with false by lia.
    destruct ((cu_start c <=? at_) && (at_ <? cu_start c + len (cu_buf c))) eqn:Hb.
    - exists c, []. split; [reflexivity|]. split; [exact I|]. split; [reflexivity|]. split; [lia|split; [lia|constructor]].
    - clear Hb. destruct (div_floor at_ CH CH_pos) as (q & -> & Hlo & Hhi).
      set (al := q * CH) in *. set (en := N.min (al + CH) n).
      pose proof (read_good al en ltac:(lia) ltac:(lia)) as G. rewrite (goodP_run _ _ _ G).
      set (L := range E al en) in *.
      assert (HL : len L = en - al) by (subst L; unfold range; rewrite singles_len; lia).
      destruct L as [|x L'] eqn:EL; [rewrite len_nil in HL; lia|].
      exists {| cu_buf := x :: L'; cu_start := al; cu_pos := cu_pos c |}, (fetches (v_read_into v al en)).
      split; [reflexivity|]. cbn [cu_buf cu_start cu_pos].
      split; [|split; [reflexivity|split; [exact Hlo|split; [lia|apply G]]]].
      unfold Inv; cbn [cu_buf cu_start].
      split; [|split; [lia|right; split; [subst al; now rewrite N.div_mul by (pose proof CH_pos; lia)|lia]]].
      intros k Hk. rewrite <- EL. apply singles_get; lia.
  Qed.

  Lemma buf_get c i : Inv c -> cu_start c <= i -> i < cu_start c + len (cu_buf c) ->
    nth_n (cu_buf c) (i - cu_start c) = elem i.
  Proof. clear Hfull Hout Hread. intros (I1 & _) H1 H2. rewrite nth_n_get, I1 by lia. f_equal. lia. Qed.

  Theorem cursor_get_spec c i : Inv c ->
    exists c' a, cursor_get v c i = (COpt (elem i), c', a) /\ Inv c' /\ cu_pos c' = cu_pos c /\ Forall P a.
  Proof using Hfull Hout Hread.
    intros I. unfold cursor_get. fold n.
    destruct (N.leb_spec n i) as [Hn|Hn].
    - exists c, []. rewrite Hout by auto. split; [reflexivity|split; [exact I|split; [reflexivity|constructor]]].
    - destruct (ensure_spec c i I Hn) as (c' & a & -> & I' & Hp & Hs1 & Hs2 & F).
      exists c', a. split; [|split; [exact I'|split; [exact Hp|exact F]]].
      rewrite buf_get by auto. now destruct (elem_full i Hn) as [x ->].
  Qed.

  Theorem cursor_next_spec c : Inv c ->
    exists c' a, cursor_next v c = (COpt (elem (cu_pos c)), c', a) /\ Inv c'
      /\ cu_pos c' = (if cu_pos c <? n then cu_pos c + 1 else cu_pos c) /\ Forall P a.
  Proof using Hfull Hout Hread.
    intros I. unfold cursor_next.
    destruct (N.ltb_spec (cu_pos c) n) as [Hn|Hn].
    - destruct (ensure_spec c (cu_pos c) I Hn) as (c' & a & -> & I' & Hp & Hs1 & Hs2 & F).
      rewrite buf_get by auto. destruct (elem_full _ Hn) as [x ->].
      eexists. exists a. split; [reflexivity|]. split; [apply Inv_pos; exact I'|]. split; [cbn; lia|exact F].
    - unfold ensure. fold n. replace (n <=? cu_pos c) with true by lia.
      exists c, []. rewrite Hout by auto. split; [reflexivity|split; [exact I|split; [reflexivity|constructor]]].
  Qed.

  (* default read_sorted_into_at: any index list (sortedness only matters for the number of refills) *)
  Lemma read_sorted_loop_spec idx : forall c out a, Inv c -> Forall P a ->
    exists a', read_sorted_loop v c idx out a = (ROk (out ++ flat_map E idx), a') /\ Forall P a'.
  Proof using Hfull Hout Hread.
    induction idx as [|i idx IH]; intros c out a I Fa; cbn [read_sorted_loop flat_map].
    - exists a. now rewrite app_nil_r.
    - destruct (cursor_get_spec c i I) as (c' & a1 & -> & I' & _ & F1).
      assert (Fa1 : Forall P (a ++ a1)) by (apply Forall_app; auto).
      unfold E at 1. destruct (elem i) as [x|]; cbn [opt_list].
      + destruct (IH c' (out ++ [x]) (a ++ a1) I' Fa1) as (a' & -> & F'). exists a'. now rewrite <- app_assoc.
      + destruct (IH c' out (a ++ a1) I' Fa1) as (a' & -> & F'). exists a'. auto.
  Qed.
  Theorem read_sorted_spec idx :
    exists a, read_sorted v idx = (ROk (flat_map E idx), a) /\ Forall P a.
  Proof using Hfull Hout Hread. unfold read_sorted. apply (read_sorted_loop_spec idx cursor_new [] []); [apply Inv_new|constructor]. Qed.

  Lemma buf_slice c a b : Inv c -> b <= len (cu_buf c) ->
    slice a b (cu_buf c) = range E (cu_start c + a) (cu_start c + b).
  Proof. clear Hfull Hout Hread. intros (I1 & _) Hb. apply slice_range. intros k _ Hk. unfold E. now rewrite I1 by lia. Qed.
  (* fuel + 1 iterations reach a target that lies within fuel chunks of the chunk holding pos: each
     iteration ends at the target or at the next chunk start *)
  Lemma fold_loop_spec : forall fuel c target out a, Inv c -> cu_pos c <= target -> target <= n -> Forall P a ->
    (cu_pos c < target ->
     exists s, aligned s /\ s <= cu_pos c /\ cu_pos c < s + CH /\ target <= s + N.of_nat fuel * CH) ->
    exists c' a', cursor_fold_loop (S fuel) v c target out a
                  = (CList (out ++ range E (cu_pos c) target), c', a')
      /\ Inv c' /\ cu_pos c' = target /\ Forall P a'.
  Proof using Hfull Hread. clear Hout.
    (* fuel1 hides the successor of the induction step, so that cbn unfolds one iteration only *)
    induction fuel as [|fuel IH]; intros c target out a I Hpt Htn Fa Hfuel; [|set (fuel1 := S fuel) in *];
      cbn [cursor_fold_loop]; destruct (N.leb_spec target (cu_pos c)) as [Hle|Hlt].
    1, 3: exists c, a; rewrite range_nil, app_nil_r by auto; split; [reflexivity|split; [exact I|split; [lia|exact Fa]]].
    - destruct (Hfuel Hlt) as (s & _ & Hs1 & _ & Hs3). lia.
    - destruct (Hfuel Hlt) as (s & Hs & Hs1 & Hs2 & Hs3).
      destruct (ensure_spec c (cu_pos c) I ltac:(lia)) as (c2 & a1 & -> & I2 & Hp & Hb1 & Hb2 & F1).
      destruct (Inv_chunk c2 I2) as [Ha2 Hend]; [intros E0; rewrite E0, len_nil in Hb2; lia|].
      assert (cu_start c2 = s) by (apply aligned_unique; auto; lia). subst s. rewrite Hp.
      set (le := N.min (target - cu_start c2) (len (cu_buf c2))).
      replace (le <? cu_pos c - cu_start c2) with false by lia.
      destruct (IH {| cu_buf := cu_buf c2; cu_start := cu_start c2; cu_pos := cu_start c2 + le |} target
                  (out ++ slice (cu_pos c - cu_start c2) le (cu_buf c2)) (a ++ a1))
        as (c' & a' & -> & R); cbn [cu_pos];
        [exact I2|lia|exact Htn|apply Forall_app; auto| |].
      + intros Hlt'. exists (cu_start c2 + CH). split; [now apply aligned_next|lia].
      + exists c', a'. split; [|exact R]. rewrite <- app_assoc, (range_split E (cu_start c2 + le) (cu_pos c)) by lia.
        rewrite (buf_slice c2 (cu_pos c - cu_start c2) le I2) by lia.
        now replace (cu_start c2 + (cu_pos c - cu_start c2)) with (cu_pos c) by lia.
  Qed.
  Theorem cursor_fold_spec c k : Inv c -> cu_pos c <= n -> n <= u64_max ->
    let target := N.min (sat_add (cu_pos c) k) n in
    exists c' a, cursor_fold v c k
                 = (CList (range E (cu_pos c) target), c', a)
      /\ Inv c' /\ cu_pos c' = target /\ Forall P a.
  Proof using Hfull Hread. clear Hout.
    intros I Hp Hmax target. unfold cursor_fold. fold n. fold target. change READ_CHUNK_SIZE with CH.
    assert (Hpt : cu_pos c <= target) by (subst target; unfold sat_add; lia).
    apply (fold_loop_spec _ c target [] [] I Hpt); [subst target; lia|constructor|].
    destruct (div_floor (cu_pos c) CH CH_pos) as (q & _ & H1 & H2), (div_floor (target - cu_pos c) CH CH_pos) as (x & -> & H3 & H4).
    intros _. exists (q * CH). split; [now exists q|lia].
  Qed.
  Lemma advance_inv c k : Inv c -> Inv (cursor_advance v c k) /\ cu_pos (cursor_advance v c k) <= n.
  Proof using P Hfull Hout Hread. intros I. split; [apply Inv_pos; exact I|cbn; fold n; lia]. Qed.

  Definition expect (f t : N) : list N := range E (N.min f n) (N.min t n).
  Theorem cursor_fold_new k : n <= u64_max ->
    exists c' a, cursor_fold v cursor_new k = (CList (expect 0 k), c', a) /\ cu_pos c' = N.min k n /\ Forall P a.
  Proof using Hfull Hread. clear Hout.
    intros H. destruct (cursor_fold_spec cursor_new k Inv_new) as (c' & a & E1 & _ & Hp & F); [cbn; lia|exact H|].
    cbn [cu_pos cursor_new] in *. replace (N.min (sat_add 0 k) n) with (N.min k n) in * by (unfold sat_add; lia).
    exists c', a. split; [|auto]. rewrite E1. unfold expect. now rewrite N.min_0_l.
  Qed.

  Definition data : list N := flat_map E (seqN 0 (N.to_nat n)).
  Lemma data_len : len data = n.
  Proof using Hfull. clear Hout Hread. unfold data. rewrite singles_len; lia. Qed.
  Lemma data_get k : get data k = elem k.
  Proof using Hfull Hout. clear Hread.
    destruct (N.lt_ge_cases k n).
    - unfold data. rewrite singles_get by lia. f_equal.
    - rewrite get_none by (rewrite data_len; auto). now rewrite Hout.
  Qed.
  Lemma data_slice f t : slice f t data = range E f t.
  Proof using Hfull Hout. clear Hread. apply (slice_range data E 0). intros k _ _. unfold E. now rewrite data_get. Qed.
  Theorem materialize_fresh :
    exists a, materialize v None = (ROk data, Some (n, data), a) /\ Forall P a.
  Proof using Hread. clear Hfull Hout.
    unfold materialize. fold n. pose proof (read_good 0 n ltac:(lia) ltac:(lia)) as G.
    rewrite (goodP_run _ _ _ G). unfold range. rewrite N.sub_0_r. eexists. split; [reflexivity|apply G].
  Qed.
  Theorem cached_fold_fresh f t : cached_fold data f t = expect f t.
  Proof using Hfull Hout. clear Hread.
    unfold cached_fold, expect. rewrite data_len, data_slice.
    destruct (N.le_gt_cases (N.min t n) (N.min f n)).
    - now rewrite !range_nil by lia.
    - now replace (N.min f (N.min t n)) with (N.min f n) by lia.
  Qed.
  Theorem cached_read_into_fresh f t : cached_read_into data f t = expect f t.
  Proof using Hfull Hout. clear Hread.
    unfold cached_read_into, expect. rewrite data_len.
    destruct (N.ltb_spec f (N.min t n)).
    - rewrite data_slice. now replace (N.min f n) with f by lia.
    - now rewrite range_nil by lia.
  Qed.
  Theorem cached_one_fresh i : cached_one data i = elem i.
  Proof using Hfull Hout. clear Hread. unfold cached_one. rewrite nth_n_get. apply data_get. Qed.
  Theorem cached_fresh f t :
    exists a, materialize v None = (ROk data, Some (n, data), a) /\ Forall P a
      /\ cached_fold data f t = expect f t /\ cached_read_into data f t = expect f t
      /\ (forall i, cached_one data i = elem i).
  Proof using Hfull Hout Hread.
    destruct materialize_fresh as (a & M & F). exists a.
    split; [exact M|split; [exact F|split; [apply cached_fold_fresh|split; [apply cached_read_into_fresh|exact cached_one_fresh]]]].
  Qed.
  Theorem cached_sorted_fresh idx : cached_sorted data idx = flat_map E idx.
  Proof using P Hfull Hout Hread. unfold cached_sorted. apply flat_map_ext_in. intros k _. unfold E. now rewrite nth_n_get, data_get. Qed.
End Generic.

Definition hole_free (c : rstate) : Prop := r_holes c = [].

Lemma view_full c : wf c -> hole_free c -> forall k, k < rlen c -> view c k <> None.
Proof.
  intros W Hh k Hk. unfold view. assert (Hno : is_hole c k = false) by (unfold is_hole; now rewrite Hh).
  rewrite Hno, !nth_n_get. destruct (N.ltb_spec k (r_stored c)).
  - destruct (upd_get c k) eqn:Hu; [discriminate|].
    destruct (get_some _ _ (wf_on_disk c k W H Hno Hu)) as [x ->]. discriminate.
  - destruct (get_some (r_pushed c) (k - r_stored c)) as [x ->]; [unfold rlen in Hk; lia|discriminate].
Qed.

Section Raw.
  Variable c : rstate.
  Hypothesis W : wf c.
  Hypothesis Hh : hole_free c.
  Lemma expect_raw f t : expect (raw_rvec c) (view c) f t = expected c f t.
  Proof. reflexivity. Qed.
  Lemma raw_read f t : goodP (in_region c) (v_read_into (raw_rvec c) f t) (expect (raw_rvec c) (view c) f t).
  Proof using W. rewrite expect_raw. apply (read_into_at_good c f t W). Qed.

  Ltac raw_hyps := first [exact (view_full c W Hh) | exact (view_out c) | exact raw_read].

  Theorem raw_read_sorted idx :
    exists a, read_sorted (raw_rvec c) idx = (ROk (flat_map (fun i => opt_list (expected_one c i)) idx), a)
              /\ Forall (in_region c) a.
  Proof using W Hh.
    edestruct (read_sorted_spec (raw_rvec c) (view c) (in_region c)) as (a & -> & F); try raw_hyps.
    exists a. split; [|exact F]. do 2 f_equal. apply flat_map_ext_in. intros. unfold E. now rewrite expected_one_view.
  Qed.
  Theorem raw_cursor_get cu i : Inv (raw_rvec c) (view c) cu ->
    exists cu' a, cursor_get (raw_rvec c) cu i = (COpt (expected_one c i), cu', a)
      /\ Inv (raw_rvec c) (view c) cu' /\ cu_pos cu' = cu_pos cu /\ Forall (in_region c) a.
  Proof using W Hh.
    intros I. rewrite expected_one_view.
    eapply (cursor_get_spec (raw_rvec c) (view c) (in_region c)); try raw_hyps. exact I.
  Qed.
  Theorem raw_cursor_next cu : Inv (raw_rvec c) (view c) cu ->
    exists cu' a, cursor_next (raw_rvec c) cu = (COpt (expected_one c (cu_pos cu)), cu', a)
      /\ Inv (raw_rvec c) (view c) cu'
      /\ cu_pos cu' = (if cu_pos cu <? rlen c then cu_pos cu + 1 else cu_pos cu) /\ Forall (in_region c) a.
  Proof using W Hh.
    intros I. rewrite expected_one_view.
    eapply (cursor_next_spec (raw_rvec c) (view c) (in_region c)); try raw_hyps. exact I.
  Qed.
  Theorem raw_cursor_fold k : rlen c <= u64_max ->
    exists cu' a, cursor_fold (raw_rvec c) cursor_new k = (CList (expected c 0 k), cu', a)
      /\ cu_pos cu' = N.min k (rlen c) /\ Forall (in_region c) a.
  Proof using W Hh. rewrite <- expect_raw. apply (cursor_fold_new (raw_rvec c) (view c) (in_region c)); raw_hyps. Qed.
  Theorem raw_cached_fresh from to :
    exists d a, materialize (raw_rvec c) None = (ROk d, Some (rlen c, d), a) /\ Forall (in_region c) a
      /\ cached_fold d from to = expected c from to /\ cached_read_into d from to = expected c from to
      /\ (forall i, cached_one d i = expected_one c i).
  Proof using W Hh.
    setoid_rewrite expected_one_view. rewrite <- !expect_raw.
    destruct (cached_fresh (raw_rvec c) (view c) (in_region c)) with (f := from) (t := to) as (a & H); try raw_hyps.
    exists (data (raw_rvec c) (view c)), a. exact H.
  Qed.
End Raw.
