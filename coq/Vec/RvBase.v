(* BTreeSet<usize> / BTreeMap<usize,T> as lists over N, and the value-level region of the
   raw-vector model.  The membership / lookup facts below hold for ANY list; sortedness matters only
   for iteration order (serialisation) and comes by construction (sorted insert, filter). *)
From Anydb Require Import Common.Base.

Definition nset := list N.
Definition ns_mem (x : N) (s : nset) : bool := existsb (N.eqb x) s.
Definition ns_remove (x : N) (s : nset) : nset := filter (fun y => negb (y =? x)) s.
Fixpoint ns_ins (x : N) (s : nset) : nset :=
  match s with
  | [] => [x]
  | y :: t => if x <? y then x :: s else if x =? y then s else y :: ns_ins x t
  end.
Definition ns_insert (x : N) (s : nset) : nset := ns_ins x s.
(* split_off(&i) keeps the elements < i in self *)
Definition ns_below (i : N) (s : nset) : nset := filter (fun y => y <? i) s.
Definition ns_of_list (l : list N) : nset := fold_left (fun s x => ns_insert x s) l [].
(* first() / pop_first(): the minimum; on a sorted list the head *)
Fixpoint ns_min (s : nset) : option N :=
  match s with
  | [] => None
  | x :: t => match ns_min t with None => Some x | Some m => Some (N.min x m) end
  end.

Lemma ns_mem_ins x y s : ns_mem x (ns_ins y s) = (x =? y) || ns_mem x s.
Proof.
  induction s as [|z t IH]; cbn [ns_ins ns_mem existsb].
  - now rewrite orb_false_r.
  - destruct (y <? z) eqn:E1; cbn [existsb]; [reflexivity|].
    destruct (y =? z) eqn:E2; cbn [existsb].
    + apply N.eqb_eq in E2. subst. destruct (x =? z); reflexivity.
    + fold (ns_mem x (ns_ins y t)). rewrite IH. fold (ns_mem x t).
      destruct (x =? z), (x =? y); reflexivity.
Qed.
Lemma ns_mem_insert x y s : ns_mem x (ns_insert y s) = (x =? y) || ns_mem x s.
Proof. apply ns_mem_ins. Qed.
Lemma ns_mem_In x s : ns_mem x s = true <-> In x s.
Proof.
  unfold ns_mem. rewrite existsb_exists. split.
  - intros [y [Hy E]]. apply N.eqb_eq in E. now subst.
  - intros H. exists x. split; auto. apply N.eqb_refl.
Qed.
Lemma ns_mem_filter x f s : ns_mem x (filter f s) = f x && ns_mem x s.
Proof. apply eq_true_iff_eq. rewrite andb_true_iff, !ns_mem_In, filter_In. tauto. Qed.
Lemma ns_mem_remove x y s : ns_mem x (ns_remove y s) = negb (x =? y) && ns_mem x s.
Proof. unfold ns_remove. now rewrite ns_mem_filter. Qed.
Lemma ns_remove_idem x (s : nset) : ns_remove x (ns_remove x s) = ns_remove x s.
Proof.
  unfold ns_remove. induction s as [|y s IH]; cbn [filter]; [reflexivity|].
  destruct (negb (y =? x)) eqn:E; cbn [filter]; rewrite ?E, IH; reflexivity.
Qed.
Lemma ns_mem_below x i s : ns_mem x (ns_below i s) = (x <? i) && ns_mem x s.
Proof. unfold ns_below. now rewrite ns_mem_filter. Qed.
Lemma ns_mem_nil x : ns_mem x [] = false. Proof. reflexivity. Qed.
Lemma ns_min_mem s m : ns_min s = Some m -> ns_mem m s = true.
Proof.
  revert m; induction s as [|x t IH]; cbn [ns_min]; [discriminate|]. intros m.
  destruct (ns_min t) as [m'|] eqn:E; intros [= <-]; cbn [ns_mem existsb].
  - destruct (N.min_spec x m') as [[_ ->]|[_ ->]].
    + now rewrite N.eqb_refl.
    + fold (ns_mem m' t). rewrite (IH _ eq_refl). apply orb_true_r.
  - now rewrite N.eqb_refl.
Qed.
Lemma ns_min_le s m x : ns_min s = Some m -> ns_mem x s = true -> m <= x.
Proof.
  revert m; induction s as [|y t IH]; cbn [ns_min ns_mem existsb]; [discriminate|]. intros m.
  fold (ns_mem x t).
  destruct (ns_min t) as [m'|] eqn:E; intros [= <-] H; apply orb_true_iff in H as [H|H].
  - apply N.eqb_eq in H. lia.
  - specialize (IH _ eq_refl H). lia.
  - apply N.eqb_eq in H. lia.
  - destruct t; [discriminate H|]. cbn in E. destruct (ns_min t); discriminate.
Qed.
Lemma ns_min_none s : ns_min s = None -> s = [].
Proof. destruct s; cbn; auto. destruct (ns_min s); discriminate. Qed.

Section MAP.
Context {T : Type}.
Definition nmap := list (N * T).
Fixpoint nm_get (x : N) (m : nmap) : option T :=
  match m with
  | [] => None
  | (k, v) :: t => if x =? k then Some v else nm_get x t
  end.
Definition nm_remove (x : N) (m : nmap) : nmap := filter (fun p => negb (fst p =? x)) m.
Fixpoint nm_ins (x : N) (v : T) (m : nmap) : nmap :=
  match m with
  | [] => [(x, v)]
  | (k, w) :: t => if x <? k then (x, v) :: m else if x =? k then (x, v) :: t else (k, w) :: nm_ins x v t
  end.
Definition nm_insert (x : N) (v : T) (m : nmap) : nmap := nm_ins x v (nm_remove x m).
Definition nm_below (i : N) (m : nmap) : nmap := filter (fun p => fst p <? i) m.
Definition nm_keys (m : nmap) : list N := map fst m.
Definition nm_has (x : N) (m : nmap) : bool := match nm_get x m with Some _ => true | None => false end.

Lemma nm_get_filter x f m : nm_get x (filter (fun p => f (fst p)) m) = if f x then nm_get x m else None.
Proof.
  induction m as [|[k w] t IH]; cbn [filter fst]; [now destruct (f x)|].
  destruct (f k) eqn:Ef; cbn [nm_get]; rewrite ?IH; destruct (N.eqb_spec x k) as [->|]; rewrite ?Ef; reflexivity.
Qed.
Lemma nm_get_remove x y m : nm_get x (nm_remove y m) = if x =? y then None else nm_get x m.
Proof.
  unfold nm_remove. rewrite (nm_get_filter x (fun k => negb (k =? y))). now destruct (x =? y).
Qed.
Lemma nm_get_below x i m : nm_get x (nm_below i m) = if x <? i then nm_get x m else None.
Proof. unfold nm_below. now rewrite (nm_get_filter x (fun k => k <? i)). Qed.
Lemma nm_get_ins x y v m : nm_get y m = None -> nm_get x (nm_ins y v m) = if x =? y then Some v else nm_get x m.
Proof.
  induction m as [|[k w] t IH]; cbn [nm_ins nm_get]; intros Hn; [reflexivity|].
  destruct (y =? k) eqn:Eyk; [discriminate|].
  destruct (y <? k) eqn:E1; cbn [nm_get]; [reflexivity|].
  destruct (x =? k) eqn:Exk.
  - apply N.eqb_eq in Exk. subst. rewrite N.eqb_sym in Eyk. now rewrite Eyk.
  - now apply IH.
Qed.
Lemma nm_get_ins_same x v m : nm_get x (nm_ins x v m) = Some v.
Proof.
  induction m as [|[k w] t IH]; cbn [nm_ins nm_get]; [now rewrite N.eqb_refl|].
  destruct (x <? k) eqn:E1; cbn [nm_get]; [now rewrite N.eqb_refl|].
  destruct (x =? k) eqn:E2; cbn [nm_get]; [now rewrite N.eqb_refl|]. now rewrite E2.
Qed.
Lemma nm_ins_len x v m : len (nm_ins x v m) <= 1 + len m.
Proof.
  induction m as [|[k w] t IH]; cbn [nm_ins]; [rewrite len_cons; lia|].
  destruct (x <? k); [rewrite !len_cons; lia|]. destruct (x =? k); rewrite !len_cons in *; lia.
Qed.
Lemma nm_ins_in x v m p : In p (nm_ins x v m) -> p = (x, v) \/ In p m.
Proof.
  induction m as [|[k w] t IH]; cbn [nm_ins In]; [intuition|].
  destruct (x <? k); cbn [In]; [intuition|]. destruct (x =? k); cbn [In]; intuition.
Qed.
Lemma nm_get_insert x y v m : nm_get x (nm_insert y v m) = if x =? y then Some v else nm_get x m.
Proof.
  unfold nm_insert. rewrite nm_get_ins.
  - destruct (x =? y) eqn:E; [reflexivity|]. rewrite nm_get_remove. now rewrite E.
  - rewrite nm_get_remove. now rewrite N.eqb_refl.
Qed.
Lemma nm_get_keys x m : nm_get x m <> None <-> In x (nm_keys m).
Proof.
  induction m as [|[k w] t IH]; cbn [nm_get nm_keys map fst In]; [tauto|].
  destruct (x =? k) eqn:E.
  - apply N.eqb_eq in E. subst. split; [auto|discriminate].
  - apply N.eqb_neq in E. rewrite IH. unfold nm_keys. split; [auto|]. intros [H|H]; [congruence|auto].
Qed.
End MAP.
Arguments nmap : clear implicits.

(* The region holds the 32-byte header and then values of a fixed width; every write the raw
   vector issues is value-aligned, so the region is the list of its VALID values [disk] (region
   length = HEADER_OFFSET + size * |disk|).  [stale] is what physically remains behind the valid
   length inside the reserved space (rawdb's truncate only lowers the length; region.rs:111-131):
   the code reads there through unchecked pointer arithmetic.  No theorem relies on stale data:
   R3 of RvRefine.R says no read reaches it; the ghost [stale_reads] counts every read that does. *)
Section VREG.
Context {T : Type}.
Record vreg := mkVreg { vr_disk : list T; vr_stale : list T }.
Definition vr_phys (r : vreg) : list T := vr_disk r ++ vr_stale r.
Definition vr_len (r : vreg) : N := len (vr_disk r).
Definition vr_truncate (r : vreg) (n : N) : option vreg :=      (* None = Err TruncateInvalid *)
  if vr_len r <? n then None
  else Some (mkVreg (take n (vr_disk r)) (drop n (vr_disk r) ++ vr_stale r)).
Definition vr_truncate_write (r : vreg) (at_ : N) (vs : list T) : option vreg :=  (* None = Err WriteOutOfBounds *)
  if vr_len r <? at_ then None
  else Some (mkVreg (take at_ (vr_disk r) ++ vs) (drop (at_ + len vs) (vr_phys r))).
Definition vr_write_at (r : vreg) (at_ : N) (vs : list T) : option vreg :=        (* None = Err WriteOutOfBounds *)
  if vr_len r <? at_ then None
  else
    let n := N.max (at_ + len vs) (vr_len r) in
    let phys := take at_ (vr_disk r) ++ vs ++ drop (at_ + len vs) (vr_phys r) in
    Some (mkVreg (take n phys) (drop n phys)).
(* physical read of value i: valid, stale, or the zero bytes of never-written reserved space *)
Definition vr_read (zero : T) (r : vreg) (i : N) : T :=
  match get (vr_phys r) i with Some v => v | None => zero end.
End VREG.
Arguments vreg : clear implicits.
