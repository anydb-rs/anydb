(* Two predicates on cursor operations, both closed under bind, carry the proofs about the change-record codec:
   `wb` of Vec/CurTheory.v (no panic, and the answer on a truncated input is determined by the answer on the
   whole) and `reads f e v` (f consumes exactly the encoding e and returns v), which gives the round trip
   `parse_serialize`.  Each is shown of the one primitive read `cur_take` (`wb_take`, `reads_take`) and from it
   of the parsers. *)
From Anydb Require Import Common.Base Common.ListFacts Common.LE Vec.RvBase Vec.RvChange Vec.CurTheory.
Set Default Proof Using "Type".

(* the cursor over input b that has consumed k bytes is [mkCur b k] *)
Notation cop := (CurTheory.cop verr cursor).
Notation wb := (CurTheory.wb mkCur).

(* every read of ChangeCursor is: check that n bytes remain, hand them to g, advance
   (cur_read_u64 is cur_take 8 le_dec by conversion) *)
Definition cur_take {A} (n : N) (g : list N -> A) : cop A := fun c =>
  let! _ := check_remaining c n in
  Ok (g (slice (c_pos c) (c_pos c + n) (c_bytes c)), mkCur (c_bytes c) (c_pos c + n)).
Lemma read_values_take {A} c count w (rd : list N -> A) :
  cur_read_values c count w rd =
  match checked_mul64 w count with
  | None => Err EOverflow
  | Some total => cur_take total (fun body => map rd (chunks (N.to_nat count) (N.to_nat w) body)) c
  end.
Proof. reflexivity. Qed.
Lemma skip_take {B} n (k : cursor -> res verr B) c : bind (cur_skip c n) k = bind (cur_take n (fun _ => tt) c) (fun p => k (snd p)).
Proof. unfold cur_skip, cur_take. now destruct (check_remaining c n). Qed.

Lemma check_remaining_ok c n : check_remaining c n = Ok tt -> c_pos c + n < two64 /\ c_pos c + n <= len (c_bytes c).
Proof.
  unfold check_remaining. destruct (N.leb_spec two64 (c_pos c + n)); [discriminate|].
  now destruct (N.ltb_spec (len (c_bytes c)) (c_pos c + n)).
Qed.
Lemma check_remaining_intro c n : c_pos c + n < two64 -> c_pos c + n <= len (c_bytes c) -> check_remaining c n = Ok tt.
Proof.
  intros. unfold check_remaining.
  destruct (N.leb_spec two64 (c_pos c + n)); [lia|]. now destruct (N.ltb_spec (len (c_bytes c)) (c_pos c + n)); [lia|].
Qed.
Lemma check_remaining_short b p m n : p + n < two64 -> m < p + n -> check_remaining (mkCur (take m b) p) n = Err EWrongLength.
Proof.
  intros. unfold check_remaining. cbn [c_pos c_bytes]. rewrite len_take.
  destruct (N.leb_spec two64 (p + n)); [lia|]. now destruct (N.ltb_spec (N.min m (len b)) (p + n)); [|lia].
Qed.
Lemma check_remaining_never_panics c n : check_remaining c n <> Panic.
Proof. unfold check_remaining. destruct (two64 <=? _); [discriminate|]. destruct (_ <? _); discriminate. Qed.

Lemma wb_take {A} n (g : list N -> A) : wb (cur_take n g).
Proof.
  split.
  - intros c. unfold cur_take. pose proof (check_remaining_never_panics c n).
    destruct (check_remaining c n) as [[]| |]; cbn; congruence.
  - intros b p m v c' Hp H. unfold cur_take in *.
    destruct (check_remaining (mkCur b p) n) as [[]| |] eqn:E; cbn [bind] in H; try discriminate.
    injection H as <- <-. apply check_remaining_ok in E. cbn [c_pos c_bytes] in *.
    exists (p + n). repeat split; try lia.
    + intros Hm. rewrite check_remaining_intro; cbn [c_pos c_bytes bind]; [|lia|rewrite len_take; lia].
      now rewrite slice_take.
    + intros Hpm Hm. exists EWrongLength. rewrite check_remaining_short by lia. reflexivity.
Qed.

Lemma wb_bind_skip {B} n (k : cop B) : wb k -> wb (fun c => bind (cur_skip c n) k).
Proof. intros Hk. eapply wb_ext; [intros c; apply skip_take|]. apply wb_bind; [apply wb_take|intros ?; exact Hk]. Qed.
Lemma wb_read_values {A} count w (rd : list N -> A) : wb (fun c => cur_read_values c count w rd).
Proof. eapply wb_ext; [intros c; apply read_values_take|]. apply wb_opt; [apply wb_err|intros ?; apply wb_take]. Qed.

Ltac wb_step := first
 [ apply wb_ret | apply wb_err
 | apply (wb_bind cur_read_u64); [apply (wb_take 8 le_dec)|intros ?; cbn beta iota]
 | eapply (wb_bind (fun c => cur_read_values c _ _ _)); [apply wb_read_values|intros ?; cbn beta iota]
 | apply wb_bind_skip
 | apply wb_if; [apply wb_err|]
 | apply wb_opt; [apply wb_err|intros ?] ].

(* cursor.rs expect_end on this cursor: parse_raw_change_data is CurTheory.whole of the cursor parser (parse_whole) *)
Definition cur_at_end (c : cursor) : bool := c_pos c =? len (c_bytes c).
Lemma cur_at_end_on b k : k <= len b -> cur_at_end (mkCur b k) = (k =? len b).
Proof. reflexivity. Qed.
Local Notation cur_whole := (CurTheory.whole mkCur cur_at_end EWrongLength).

Section REC.
Context {T : Type} (tsize : N) (enc : T -> list N) (dec : list N -> T).

Lemma wb_parse_change_data : wb (parse_change_data tsize dec).
Proof. unfold parse_change_data. repeat wb_step. Qed.

Lemma wb_parse_raw_change_cur : wb (parse_raw_change_cur tsize dec).
Proof.
  unfold parse_raw_change_cur.
  apply (wb_bind (parse_change_data tsize dec)); [apply wb_parse_change_data|intros ?; cbn beta iota].
  repeat wb_step.
Qed.

Lemma parse_whole bytes : parse_raw_change_data tsize dec bytes = cur_whole (parse_raw_change_cur tsize dec) bytes.
Proof.
  unfold parse_raw_change_data, CurTheory.whole, expect_end, cur_at_end.
  destruct (parse_raw_change_cur tsize dec (mkCur bytes 0)) as [[x c]| |]; cbn [bind fst snd]; try reflexivity.
  now destruct (c_pos c =? len (c_bytes c)).
Qed.

Lemma parse_ok_inv bytes x :
  parse_raw_change_data tsize dec bytes = Ok x ->
  parse_raw_change_cur tsize dec (mkCur bytes 0) = Ok (x, mkCur bytes (len bytes)).
Proof. rewrite parse_whole. exact (whole_ok_inv cur_at_end_on wb_parse_raw_change_cur bytes x). Qed.

Lemma accepted_prefix_rejected bytes x m :
  parse_raw_change_data tsize dec bytes = Ok x -> m < len bytes ->
  exists e, parse_raw_change_data tsize dec (take m bytes) = Err e.
Proof. rewrite !parse_whole. exact (whole_prefix_rejected cur_at_end_on wb_parse_raw_change_cur bytes x m). Qed.

Lemma parse_pos_bound bytes x c' :
  parse_raw_change_cur tsize dec (mkCur bytes 0) = Ok (x, c') -> c_pos c' <= len bytes.
Proof.
  intros H. destruct (whole_end wb_parse_raw_change_cur bytes x c' H) as (k' & -> & Hk). exact Hk.
Qed.

Theorem parse_never_panics bytes : parse_raw_change_data tsize dec bytes <> Panic.
Proof. rewrite parse_whole. exact (whole_np wb_parse_raw_change_cur bytes). Qed.
End REC.

Definition reads {A} (f : cop A) (e : list N) (v : A) : Prop :=
  forall b p, slice p (p + len e) b = e -> p + len e <= len b -> len b < two64 ->
  f (mkCur b p) = Ok (v, mkCur b (p + len e)).

Lemma reads_take {A} n (g : list N -> A) e v : len e = n -> g e = v -> reads (cur_take n g) e v.
Proof.
  intros <- <- b p Hs Hl Hb. unfold cur_take. rewrite check_remaining_intro; cbn [c_pos c_bytes bind]; try lia.
  now rewrite Hs.
Qed.

Lemma reads_ret {A} (x : A) : reads (fun c => Ok (x, c)) [] x.
Proof. intros b p _ _ _. cbn. now rewrite N.add_0_r. Qed.

Lemma reads_bind {A B} (f : cop A) (k : A * cursor -> res verr (B * cursor)) e1 e2 a v :
  reads f e1 a -> reads (fun c => k (a, c)) e2 v -> reads (fun c => bind (f c) k) (e1 ++ e2) v.
Proof.
  intros Hf Hk b p Hs Hl Hb. destruct (slice_app_split b e1 e2 p Hs) as [H1 H2].
  rewrite len_app in *. rewrite (Hf b p H1) by lia. cbn [bind].
  rewrite (Hk b (p + len e1) H2) by lia. now rewrite N.add_assoc.
Qed.

Lemma reads_bind_u64 {B} v (k : N * cursor -> res verr (B * cursor)) e w :
  v < two64 -> reads (fun c => k (v, c)) e w -> reads (fun c => bind (cur_read_u64 c) k) (enc_u64 v ++ e) w.
Proof.
  intros Hv Hk. apply (reads_bind cur_read_u64 _ _ _ v); [|exact Hk].
  apply (reads_take 8 le_dec); [apply len_enc_u64|now apply dec_enc_u64].
Qed.

Lemma reads_bind_skip {B} n (k : cursor -> res verr (B * cursor)) e1 e2 v :
  len e1 = n -> reads k e2 v -> reads (fun c => bind (cur_skip c n) k) (e1 ++ e2) v.
Proof.
  intros Hn Hk b p. rewrite skip_take. revert b p.
  apply (reads_bind (cur_take n (fun _ => tt)) (fun q => k (snd q)) e1 e2 tt); [now apply reads_take|exact Hk].
Qed.

Lemma reads_if_false {A} (cond : bool) (f g : cop A) e v :
  cond = false -> reads g e v -> reads (fun c => if cond then f c else g c) e v.
Proof. intros ->. auto. Qed.
Lemma reads_opt_some {A X} (o : option X) x (f : cop A) (g : X -> cop A) e v :
  o = Some x -> reads (g x) e v -> reads (fun c => match o with None => f c | Some y => g y c end) e v.
Proof. intros ->. auto. Qed.

Lemma chunks_flat_map {X} (en : X -> list N) (w : nat) (vs : list X) :
  (0 < w)%nat -> (forall v, In v vs -> length (en v) = w) ->
  chunks (length vs) w (flat_map en vs) = map en vs.
Proof.
  intros Hw. induction vs as [|v t IH]; intros H; cbn [length chunks flat_map map]; auto.
  assert (Hv : length (en v) = w) by (apply H; now left).
  destruct (en v ++ flat_map en t) eqn:E.
  - apply (f_equal (@length N)) in E. rewrite app_length in E. cbn in E. lia.
  - rewrite <- E. rewrite firstn_app, Hv, Nat.sub_diag, firstn_all2 by lia. cbn [firstn]. rewrite app_nil_r.
    rewrite skipn_app, Hv, Nat.sub_diag, skipn_all2 by lia. cbn [skipn app].
    rewrite IH by (intros; apply H; now right). reflexivity.
Qed.

Lemma reads_values {X} (en : X -> list N) (rd : list N -> X) w (vs : list X) :
  0 < w -> (forall v, In v vs -> len (en v) = w /\ rd (en v) = v) ->
  reads (fun c => cur_read_values c (len vs) w rd) (flat_map en vs) vs.
Proof.
  intros Hw H b p Hs Hl Hb. rewrite read_values_take.
  assert (El : len (flat_map en vs) = w * len vs) by (apply len_flat_map; intros; now apply H).
  unfold checked_mul64. destruct (two64 <=? w * len vs) eqn:E; [lia|].
  apply (reads_take _ _ _ vs); auto.
  unfold len at 1. rewrite Nat2N.id. rewrite chunks_flat_map.
  - rewrite map_map. rewrite <- (map_id vs) at 2. apply map_ext_in. intros v Hv. now apply H.
  - lia.
  - intros v Hv. destruct (H v Hv) as [Hlen _]. unfold len in Hlen. lia.
Qed.

Section RT.
Context {T : Type} (tsize : N) (enc : T -> list N) (dec : list N -> T).
Hypothesis tsize_pos : 0 < tsize.
Hypothesis enc_len : forall v, len (enc v) = tsize.
Hypothesis dec_enc : forall v, dec (enc v) = v.

Definition valid_record (r : @crecord T) : Prop :=
  r_stamp r < two64 /\ r_prev_stored_len r < two64 /\ r_stored_len r < two64 /\
  len (r_trunc r) <= r_prev_stored_len r /\
  len (r_mod_idx r) = len (r_mod_vals r) /\
  (forall i, In i (r_mod_idx r) -> i < two64) /\ (forall i, In i (r_prev_holes r) -> i < two64) /\
  len (serialize_record enc r) < two64.

Lemma enc_vals_len (vs : list T) : len (enc_vals enc vs) = tsize * len vs.
Proof using enc_len. apply len_flat_map. intros; apply enc_len. Qed.
Lemma enc_idx_len (l : list N) : len (enc_idx l) = 8 * len l.
Proof. apply len_flat_map. intros. apply len_enc_u64. Qed.

Lemma len_lt_of_total (a b : N) : tsize * a <= b -> b < two64 -> a < two64.
Proof using tsize_pos. intros. nia. Qed.

Lemma reads_vals n (vs : list T) : n = len vs -> reads (fun c => cur_read_values c n tsize dec) (enc_vals enc vs) vs.
Proof using tsize_pos enc_len dec_enc. intros ->. apply reads_values; auto. Qed.
Lemma reads_idx n (l : list N) : n = len l -> (forall i, In i l -> i < two64) ->
  reads (fun c => cur_read_values c n 8 le_dec) (enc_idx l) l.
Proof.
  intros -> H. apply reads_values; [reflexivity|]. intros v Hv. split.
  - apply len_enc_u64.
  - apply dec_enc_u64. auto.
Qed.

(* the two halves of serialize_record, one per parser; the closing [] is what the final reads_ret consumes *)
Definition base_part (r : @crecord T) : list N :=
  enc_u64 (r_stamp r) ++ enc_u64 (r_prev_stored_len r) ++ enc_u64 (r_stored_len r)
  ++ enc_u64 (len (r_trunc r)) ++ enc_vals enc (r_trunc r)
  ++ enc_u64 (len (r_prev_pushed r)) ++ enc_vals enc (r_prev_pushed r)
  ++ enc_u64 (len (r_pushed r)) ++ enc_vals enc (r_pushed r) ++ [].
Definition raw_part (r : @crecord T) : list N :=
  enc_u64 (len (r_mod_idx r)) ++ enc_idx (r_mod_idx r) ++ enc_vals enc (r_mod_vals r)
  ++ enc_u64 (len (r_prev_holes r)) ++ enc_idx (r_prev_holes r) ++ [].
Lemma ser_split r : serialize_record enc r = base_part r ++ raw_part r.
Proof. unfold serialize_record, base_part, raw_part. rewrite !app_nil_r. repeat rewrite <- app_assoc. reflexivity. Qed.

Lemma ser_len r : len (serialize_record enc r) =
  64 + tsize * len (r_trunc r) + tsize * len (r_prev_pushed r) + tsize * len (r_pushed r)
  + 8 * len (r_mod_idx r) + tsize * len (r_mod_vals r) + 8 * len (r_prev_holes r).
Proof using enc_len.
  unfold serialize_record. rewrite !len_app, !enc_vals_len, !enc_idx_len, !len_enc_u64. clear tsize_pos. lia.
Qed.

Lemma reads_base r : valid_record r ->
  reads (parse_change_data tsize dec) (base_part r)
        (mkCD (r_stamp r) (r_prev_stored_len r) (r_prev_stored_len r - len (r_trunc r)) (r_trunc r) (r_prev_pushed r)).
Proof using tsize_pos enc_len dec_enc.
  intros (Hst & Hpsl & Hsl & Htr & Hmod & Hidx & Hph & Htot). rewrite ser_len in Htot.
  unfold parse_change_data, base_part.
  apply reads_bind_u64; [assumption|cbn beta iota].
  apply reads_bind_u64; [assumption|cbn beta iota].
  apply reads_bind_skip; [apply len_enc_u64|].
  apply reads_bind_u64; [nia|cbn beta iota].
  apply reads_if_false; [lia|].
  eapply (reads_bind (fun c => cur_read_values c _ _ _)); [now apply reads_vals|cbn beta iota].
  apply reads_bind_u64; [nia|cbn beta iota].
  eapply (reads_bind (fun c => cur_read_values c _ _ _)); [now apply reads_vals|cbn beta iota].
  apply reads_bind_u64; [nia|cbn beta iota].
  apply (reads_opt_some _ (tsize * len (r_pushed r))).
  { unfold checked_mul64. destruct (two64 <=? tsize * len (r_pushed r)) eqn:E; [nia|reflexivity]. }
  apply reads_bind_skip; [apply enc_vals_len|]. apply reads_ret.
Qed.

Theorem parse_serialize_cur r : valid_record r ->
  parse_raw_change_cur tsize dec (mkCur (serialize_record enc r) 0)
  = Ok (project_record r, mkCur (serialize_record enc r) (len (serialize_record enc r))).
Proof using tsize_pos enc_len dec_enc.
  intros Hv. pose proof Hv as (Hst & Hpsl & Hsl & Htr & Hmod & Hidx & Hph & Htot).
  assert (Hreads : reads (parse_raw_change_cur tsize dec) (serialize_record enc r) (project_record r)).
  2:{ specialize (Hreads (serialize_record enc r) 0). rewrite N.add_0_l in Hreads. apply Hreads; try lia.
      apply slice_all. reflexivity. }
  rewrite ser_len in Htot. rewrite ser_split. unfold parse_raw_change_cur, project_record.
  eapply (reads_bind (parse_change_data tsize dec)); [now apply reads_base|cbn beta iota].
  unfold raw_part.
  apply reads_bind_u64; [nia|cbn beta iota].
  eapply (reads_bind (fun c => cur_read_values c _ _ _)); [now apply reads_idx|cbn beta iota].
  eapply (reads_bind (fun c => cur_read_values c _ _ _)); [now apply reads_vals|cbn beta iota].
  apply reads_bind_u64; [nia|cbn beta iota].
  eapply (reads_bind (fun c => cur_read_values c _ _ _)); [now apply reads_idx|cbn beta iota].
  apply reads_ret.
Qed.

Theorem parse_serialize r : valid_record r ->
  parse_raw_change_data tsize dec (serialize_record enc r) = Ok (project_record r).
Proof using tsize_pos enc_len dec_enc.
  intros Hv. unfold parse_raw_change_data, expect_end. rewrite parse_serialize_cur by exact Hv. cbn [bind c_pos c_bytes].
  now rewrite N.eqb_refl.
Qed.

(* C16_prefix *)
Theorem prefix_rejected r n : valid_record r -> n < len (serialize_record enc r) ->
  exists e, parse_raw_change_data tsize dec (take n (serialize_record enc r)) = Err e.
Proof using tsize_pos enc_len dec_enc.
  intros Hv Hn. exact (accepted_prefix_rejected tsize dec _ _ n (parse_serialize r Hv) Hn).
Qed.

Theorem trailing_bytes_rejected bytes x extra :
  parse_raw_change_data tsize dec bytes = Ok x -> extra <> [] ->
  exists e, parse_raw_change_data tsize dec (bytes ++ extra) = Err e.
Proof using tsize_pos.   (* 0 < tsize is part of the statement; the proof does not need it *)
  rewrite !parse_whole. exact (whole_trailing_rejected cur_at_end_on (wb_parse_raw_change_cur tsize dec) bytes x extra).
Qed.
End RT.

(* the change directory is a map from stamps to records: RvChange.cd_ins is RvBase.nm_ins at that type *)
Lemma cd_ins_nm_ins s b l : cd_ins s b l = nm_ins s b l.
Proof. reflexivity. Qed.
Theorem save_change_file_bound d k cur st data :
  0 < k ->
  exists l, save_change_file d k cur st data = Some l /\ len l <= k /\
            (forall s b, In (s, b) l -> (s = st /\ b = data) \/ (s < st /\ s <= cur /\
                                         exists l0, d = Some l0 /\ In (s, b) l0)) /\
            nm_get st l = Some data.
Proof.
  intros Hk. unfold save_change_file. rewrite cd_ins_nm_ins. eexists. split; [reflexivity|].
  set (files := match d with None => [] | Some l => l end).
  set (kept := filter (fun p => (fst p <? st) && (fst p <=? cur)) files). repeat split.
  - eapply N.le_trans; [apply nm_ins_len|]. rewrite len_drop. lia.
  - intros s b H. apply nm_ins_in in H as [H|H]; [injection H as -> ->; now left|]. right.
    apply in_drop in H. unfold kept in H. apply filter_In in H as [Hin H]. cbn [fst] in H.
    apply andb_true_iff in H as [H1 H2]. repeat split; try lia.
    unfold files in Hin. destruct d as [l0|]; [exists l0; auto|destruct Hin].
  - apply nm_get_ins_same.
Qed.
