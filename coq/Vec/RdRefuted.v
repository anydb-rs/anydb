(* Vec/RdRefuted.v — concrete witnesses (closed by vm_compute) for the statements that the faithful
   model refutes: cursor and sorted read over a deleted slot (`w_holed`), a CachedVec after an update or
   over a deleted slot, the lean clone over a deleted slot; each is also a replay in corpus/C08 or corpus/C20.
   (The lean clone after a rollback: RdProofs.clone_after_rollback_refuted.) *)
From Anydb Require Import Common.Base Vec.RdModel Vec.RdCursor Vec.RdProofs.

(* p:4 w d:1 — cursor and sorted reads over a deleted slot: read_into_at skips the slot, the cursor indexes
   its buffer as if it did not *)
Definition w_holed : rstate := mk 8 true [10; 11; 12; 13] 4 [] [1] [].
Lemma w_holed_wf : wf w_holed. Proof. reflexivity. Qed.
Theorem read_sorted_refuted_panic : wf w_holed /\ fst (read_sorted (raw_rvec w_holed) [3]) = RPanic.
Proof. split; [exact w_holed_wf | vm_compute; reflexivity]. Qed.
Theorem read_sorted_refuted_wrong :
  wf w_holed /\ fst (read_sorted (raw_rvec w_holed) [2]) = ROk [13] /\ expected_one w_holed 2 = Some 12.
Proof. split; [exact w_holed_wf | vm_compute; auto]. Qed.
Theorem cursor_fold_refuted_hang :
  wf w_holed /\ fst (fst (cursor_fold (raw_rvec w_holed) cursor_new 4)) = CHang.
Proof. split; [exact w_holed_wf | vm_compute; reflexivity]. Qed.

(* CachedVec keyed on (len, version): p:3 w ; cached read ; u:1 ; the next cached read is the old snapshot *)
Definition w_before : rstate := mk 8 true [10; 11; 12] 3 [] [] [].
Definition w_after : rstate := mk 8 true [10; 11; 12] 3 [] [] [(1, 21)].
Theorem cached_refuted_stale :
  exists k, snd (fst (materialize (raw_rvec w_before) None)) = k
  /\ fst (fst (materialize (raw_rvec w_after) k)) = ROk [10; 11; 12]
  /\ expected w_after 0 3 = [10; 21; 12].
Proof. eexists. vm_compute. auto. Qed.
(* a snapshot holds the non-deleted elements only: index-addressed reads through it are shifted *)
Theorem cached_refuted_shift :
  fst (fst (materialize (raw_rvec w_holed) None)) = ROk [10; 12; 13]
  /\ cached_one [10; 12; 13] 1 = Some 12 /\ expected_one w_holed 1 = None.
Proof. vm_compute. auto. Qed.
(* the lean clone carries neither deleted slots nor the overlay *)
Theorem clone_ignores_holes_refuted :
  wf w_holed /\ fst (run (ro_collect_one w_holed 1)) = ROk [11] /\ expected_one w_holed 1 = None.
Proof. split; [exact w_holed_wf | vm_compute; auto]. Qed.

(* buffered indices (at or above stored_len) are served from the pushed buffer, by the dirty fold and by
   read_at_once (/repo commits 5c316cb, 0cb3a2b) *)
Example fold_dirty_past_stored_fixed :
  let w := mk 8 true [10; 11; 12] 3 [13; 14; 15] [] [(1, 21)] in
  wf w /\ fst (run (read_into_at w 4 6)) = ROk [14; 15] /\ expected w 4 6 = [14; 15].
Proof. cbv zeta. split; [reflexivity | vm_compute; auto]. Qed.
Example read_at_once_buffered_fixed :
  let w := mk 8 true [10; 11; 12] 3 [13; 14; 15] [] [] in
  wf w /\ run (read_at_once w 4) = (ROk [14], []).
Proof. cbv zeta. split; [reflexivity | vm_compute; auto]. Qed.
