(* The raw-vector model refines the reference vector for ALL histories of the non-rollback operations, all element
   types and all retention settings: [Inv] and [R] (DESIGN.md B.1: R1-R4, R7) are preserved by every step, results
   are equal, write() never fails, and no read goes behind the valid region length.
   Inv does NOT require stored_len <= on-disk length: a stored slot behind the region's end must be in the `updated`
   overlay or deleted (Cov) — the state a rollback of a truncating commit leaves (C04, Vec/RvChain.v); write() is
   total on it as well, because it first extends the region to stored_len.
   Inv also asks NoDup of the keys of `updated`: batch_write_each writes the entries in list order, so the last
   entry of a key would win where nm_get reads the first. *)
From Anydb Require Import Common.Base Common.ListFacts Vec.RvBase Vec.RvChange Vec.RvModel
  Vec.RvFacts Vec.RvRollback Vec.RvSpec.
Set Default Proof Using "Type".

Lemma get_single {A} (x : A) i : get [x] i = if i =? 0 then Some x else None.
Proof. rewrite get_cons. destruct (i =? 0); [reflexivity|]. apply get_none, N.le_0_l. Qed.
Lemma nth_error_firstn_ge {A} (l : list A) n k : (n <= k)%nat -> nth_error (firstn n l) k = None.
Proof. intros. apply nth_error_None. rewrite firstn_length. lia. Qed.

Lemma ns_mem_of_list_acc i l acc :
  ns_mem i (fold_left (fun s x => ns_insert x s) l acc) = ns_mem i l || ns_mem i acc.
Proof.
  revert acc; induction l as [|x t IH]; intros acc; cbn [fold_left]; [reflexivity|].
  rewrite IH, ns_mem_insert. cbn [ns_mem existsb]. fold (ns_mem i t).
  destruct (i =? x), (ns_mem i t), (ns_mem i acc); reflexivity.
Qed.
Lemma ns_mem_of_list i l : ns_mem i (ns_of_list l) = ns_mem i l.
Proof. unfold ns_of_list. rewrite ns_mem_of_list_acc. cbn. now rewrite orb_false_r. Qed.

Section MAPS.
Context {T : Type}.
Lemma nm_keys_filter (f : N * T -> bool) (m : nmap T) x : In x (nm_keys (filter f m)) -> In x (nm_keys m).
Proof.
  unfold nm_keys. rewrite !in_map_iff. intros [p [<- Hp]]. apply filter_In in Hp as [Hp _]. eauto.
Qed.
Lemma NoDup_keys_filter (f : N * T -> bool) (m : nmap T) : NoDup (nm_keys m) -> NoDup (nm_keys (filter f m)).
Proof.
  unfold nm_keys. induction m as [|[k v] t IH]; cbn [filter map]; intros H; [constructor|].
  inversion H as [|? ? Hn Hd]; subst. destruct (f (k, v)); cbn [map fst]; auto.
  constructor; auto. intros Hin. apply Hn. eapply (nm_keys_filter f t). exact Hin.
Qed.
Lemma nm_keys_ins x v (m : nmap T) y : In y (nm_keys (nm_ins x v m)) -> y = x \/ In y (nm_keys m).
Proof.
  unfold nm_keys. rewrite !in_map_iff. intros [p [<- Hp]]. apply nm_ins_in in Hp as [->|Hp]; [now left|right; eauto].
Qed.
Lemma NoDup_keys_ins x v (m : nmap T) : ~ In x (nm_keys m) -> NoDup (nm_keys m) -> NoDup (nm_keys (nm_ins x v m)).
Proof.
  unfold nm_keys. induction m as [|[k w] t IH]; cbn [nm_ins map fst]; intros Hn Hd.
  - constructor; auto.
  - cbn [In] in Hn. inversion Hd as [|? ? Hk Hd']; subst.
    destruct (x <? k); cbn [map fst]; [constructor; cbn [In]; auto|].
    destruct (x =? k) eqn:E; [apply N.eqb_eq in E; subst; tauto|]. cbn [map fst]. constructor.
    + intros Hin. apply (nm_keys_ins x v t) in Hin as [->|Hin]; [tauto|]. auto.
    + apply IH; auto.
Qed.
Lemma NoDup_keys_insert x v (m : nmap T) : NoDup (nm_keys m) -> NoDup (nm_keys (nm_insert x v m)).
Proof.
  intros H. unfold nm_insert. apply NoDup_keys_ins.
  - intros Hin. apply nm_get_keys in Hin. rewrite nm_get_remove, N.eqb_refl in Hin. congruence.
  - unfold nm_remove. now apply NoDup_keys_filter.
Qed.
End MAPS.

Section VR.
Context {T : Type}.
Lemma vr_truncate_write_ok (r : vreg T) at_ vs : at_ <= vr_len r ->
  exists r', vr_truncate_write r at_ vs = Some r' /\ vr_disk r' = take at_ (vr_disk r) ++ vs.
Proof.
  intros H. unfold vr_truncate_write. destruct (vr_len r <? at_) eqn:E; [lia|]. eexists. split; reflexivity.
Qed.
Lemma vr_truncate_ok (r : vreg T) n : n <= vr_len r ->
  exists r', vr_truncate r n = Some r' /\ vr_disk r' = take n (vr_disk r).
Proof.
  intros H. unfold vr_truncate. destruct (vr_len r <? n) eqn:E; [lia|]. eexists. split; reflexivity.
Qed.
Lemma vr_write_at_one (r : vreg T) i v : i < vr_len r ->
  exists r', vr_write_at r i [v] = Some r' /\ vr_len r' = vr_len r /\
             forall j, get (vr_disk r') j = if j =? i then Some v else get (vr_disk r) j.
Proof.
  intros H. unfold vr_write_at, vr_len, vr_phys in *. destruct (N.ltb_spec (len (vr_disk r)) i); [lia|].
  eexists. split; [reflexivity|]. cbn [vr_disk]. set (d := vr_disk r) in *. change (len [v]) with 1.
  assert (E : take (N.max (i + 1) (len d)) (take i d ++ [v] ++ drop (i + 1) (d ++ vr_stale r)) = take i d ++ v :: drop (i + 1) d).
  { rewrite drop_app_le by lia. cbn [app]. rewrite app_comm_cons, app_assoc. apply take_app_exact.
    rewrite len_app, len_cons, len_take, len_drop. lia. }
  rewrite E. split; [rewrite len_app, len_cons, len_take, len_drop; lia|]. intros j.
  destruct (N.lt_trichotomy j i) as [Hj|[->|Hj]].
  - rewrite get_app_l, get_take_lt by (rewrite ?len_take; lia). now destruct (N.eqb_spec j i); [lia|].
  - rewrite N.eqb_refl, get_app_r, len_take by (rewrite len_take; lia). now replace (i - N.min i (len d)) with 0 by lia.
  - rewrite get_app_r, len_take, get_cons, get_drop by (rewrite len_take; lia).
    destruct (N.eqb_spec (j - N.min i (len d)) 0), (N.eqb_spec j i); try lia. f_equal. lia.
Qed.

(* write()'s two loops over `updated` (region.write_at per entry when `expanded`, batch_write_each otherwise)
   do the same once every key is inside the region *)
Lemma write_each_ok (upd : nmap T) : forall (r : vreg T),
  NoDup (nm_keys upd) -> (forall i, nm_get i upd <> None -> i < vr_len r) ->
  exists r', write_at_each r upd = (r', true) /\ batch_write_each r upd = Some r' /\ vr_len r' = vr_len r /\
             forall j, get (vr_disk r') j = match nm_get j upd with Some v => Some v | None => get (vr_disk r) j end.
Proof.
  induction upd as [|[i v] t IH]; intros r Hd Hk; cbn [write_at_each batch_write_each].
  - exists r. repeat split.
  - assert (Hi : i < vr_len r) by (apply Hk; cbn [nm_get]; rewrite N.eqb_refl; discriminate).
    destruct (N.ltb_spec i (vr_len r)); [|lia].
    destruct (vr_write_at_one r i v Hi) as (r1 & -> & Hl1 & Hg1).
    cbn [nm_keys map fst] in Hd. inversion Hd as [|? ? Hni Hd']; subst.
    destruct (IH r1 Hd') as (r' & -> & -> & Hl & Hg).
    { intros j Hj. rewrite Hl1. apply Hk. cbn [nm_get]. destruct (j =? i); [discriminate|exact Hj]. }
    exists r'. split; [reflexivity|]. split; [reflexivity|]. split; [lia|]. intros j. rewrite Hg, Hg1. cbn [nm_get].
    destruct (N.eqb_spec j i) as [->|]; [|reflexivity].
    destruct (nm_get i t) eqn:Eg; [|reflexivity]. exfalso. apply Hni, nm_get_keys. congruence.
Qed.
Lemma batch_write_each_ok (upd : nmap T) : forall (r : vreg T),
  NoDup (nm_keys upd) -> (forall i, nm_get i upd <> None -> i < vr_len r) ->
  exists r', batch_write_each r upd = Some r' /\ vr_len r' = vr_len r /\
             forall j, get (vr_disk r') j = match nm_get j upd with Some v => Some v | None => get (vr_disk r) j end.
Proof. intros r Hd Hk. destruct (write_each_ok upd r Hd Hk) as (r' & _ & H). eauto. Qed.
Lemma write_at_each_ok (upd : nmap T) : forall (r : vreg T),
  NoDup (nm_keys upd) -> (forall i, nm_get i upd <> None -> i < vr_len r) ->
  exists r', write_at_each r upd = (r', true) /\ vr_len r' = vr_len r /\
             forall j, get (vr_disk r') j = match nm_get j upd with Some v => Some v | None => get (vr_disk r) j end.
Proof. intros r Hd Hk. destruct (write_each_ok upd r Hd Hk) as (r' & H & _ & H'). eauto. Qed.
End VR.

Ltac inv_split := split; [|split; [|split; [|split; [|split]]]].

Section REF.
Context {T : Type} (tsize : N) (dec : list N -> T).
Notation rv := (@rv T).
Notation view_at := (view_at tsize dec).
Notation phys_read := (phys_read tsize dec).
Notation rv_write := (rv_write tsize dec).

Lemma view_at_eq (s : rv) i :
  view_at s i = if ns_mem i (holes s) then None
                else if stored_len s <=? i then get (pushed s) (i - stored_len s)
                else match nm_get i (updated s) with Some v => Some v | None => Some (phys_read s i) end.
Proof.
  unfold RvModel.view_at, get_any_or_read_at.
  destruct (holes s) as [|h t] eqn:Eh; cbn [negb andb ns_mem existsb].
  - destruct (stored_len s <=? i); [reflexivity|]. destruct (nm_get i (updated s)); reflexivity.
  - destruct ((i =? h) || existsb (N.eqb i) t); [reflexivity|].
    destruct (stored_len s <=? i); [reflexivity|]. destruct (nm_get i (updated s)); reflexivity.
Qed.

(* the value under slot i, whether or not the slot is deleted *)
Definition uopt (s : rv) (i : N) : option T :=
  if stored_len s <=? i then get (pushed s) (i - stored_len s)
  else match nm_get i (updated s) with Some v => Some v | None => Some (phys_read s i) end.
Lemma view_at_uopt (s : rv) i : view_at s i = if ns_mem i (holes s) then None else uopt s i.
Proof. apply view_at_eq. Qed.

Lemma phys_read_disk (s : rv) i x : get (disk s) i = Some x -> phys_read s i = x.
Proof.
  intros H. unfold RvModel.phys_read, vr_read, vr_phys. unfold disk in H.
  rewrite get_app_l by (eapply get_some_lt; eauto). now rewrite H.
Qed.

(* the fields the view and the invariant depend on *)
Definition core (s : rv) :=
  (reg s, stored_len s, pushed s, holes s, updated s, (has_stored_holes s, holes_region s, stamp s, hdr_modified s, hdr_disk s)).

Lemma view_at_core (s s' : rv) i : core s = core s' -> view_at s i = view_at s' i.
Proof.
  unfold core. intros [= Hr Hs Hp Hh Hu _ _ _ _ _]. rewrite !view_at_eq.
  unfold RvModel.phys_read. now rewrite Hr, Hs, Hp, Hh, Hu.
Qed.
Lemma rlen_core (s s' : rv) : core s = core s' -> rlen s = rlen s'.
Proof. unfold core, rlen. intros [= _ Hs Hp _ _ _ _ _ _ _]. now rewrite Hs, Hp. Qed.

(* every stored slot is backed by the region, or — after a rollback made the vector longer than the region
   (`expanded`) — by the `updated` overlay, or it is a deleted slot *)
Definition Cov (s : rv) : Prop :=
  forall i, real_stored_len s <= i -> i < stored_len s -> nm_get i (updated s) <> None \/ ns_mem i (holes s) = true.
Definition Inv (s : rv) : Prop :=
  Cov s /\
  (forall i, nm_get i (updated s) <> None -> i < stored_len s) /\
  NoDup (nm_keys (updated s)) /\
  (forall i, ns_mem i (holes s) = true -> i < rlen s) /\
  (has_stored_holes s = true <-> holes_region s <> None) /\
  (hdr_modified s = false -> hdr_disk s = stamp s).

(* A new clause of Inv is proved wherever Inv is rebuilt: Inv_init, Inv_core (`core` lists the fields Inv reads), write_wrote
   (twice), push_refines, update_at_view (twice), delete_view, truncate_refines, reset_refines, Inv_update_stamp, reimport_ok,
   each through `inv_split`; and RvChain.clean_Inv, which makes Inv from a ghost level: what it cannot take from the level
   is a premise of its own, and those premises are the last conjuncts of RvChain.undo_clean's conclusion.
   Proofs that take Inv apart name the six clauses Icov, Iupd, Inodup, Ihol, Ihsh, Ihdr. *)
Lemma Inv_upd (s : rv) : Inv s -> forall i, nm_get i (updated s) <> None -> i < stored_len s.
Proof. intros (_ & H & _). exact H. Qed.
Lemma Inv_hol (s : rv) : Inv s -> forall i, ns_mem i (holes s) = true -> i < rlen s.
Proof. intros (_ & _ & _ & H & _). exact H. Qed.

Lemma Inv_core (s s' : rv) : core s = core s' -> Inv s -> Inv s'.
Proof.
  unfold core, Inv, Cov, rlen, real_stored_len. intros [= Hr Hs Hp Hh Hu H1 H2 H3 H4 H5].
  now rewrite Hr, Hs, Hp, Hh, Hu, H1, H2, H3, H4, H5.
Qed.

(* R1 of DESIGN.md B.1, with the length *)
Definition R (s : rv) (a : sv T) : Prop :=
  sstamp a = stamp s /\ slen a = rlen s /\ forall i, i < rlen s -> get (contents a) i = Some (view_at s i).

Lemma R_core (s s' : rv) a : core s = core s' -> R s a -> R s' a.
Proof.
  intros Hc (H1 & H2 & H3). pose proof (rlen_core _ _ Hc) as Hl.
  assert (Hst : stamp s = stamp s') by (unfold core in Hc; injection Hc; auto).
  repeat split; try congruence. intros i Hi. rewrite <- (view_at_core s s' i Hc). apply H3. lia.
Qed.

Lemma R_view (s : rv) a : R s a -> contents a = view tsize dec s.
Proof.
  intros (_ & Hl & Hg). apply list_ext_get. intros i. unfold view. rewrite get_map_seqN.
  rewrite N2Nat.id, N.add_0_l. destruct (i <? rlen s) eqn:E; [apply Hg; lia|].
  apply get_none. unfold slen in Hl. lia.
Qed.

(* R3: under Inv no slot of the view is read from behind the valid region length *)
Lemma Inv_no_stale (s : rv) i : Inv s -> i < rlen s -> snd (get_any_or_read_at tsize dec s i) = 0.
Proof.
  intros (Icov & _) Hi. unfold get_any_or_read_at.
  destruct (negb _ && ns_mem i (holes s)) eqn:Eh; [reflexivity|].
  destruct (stored_len s <=? i) eqn:E; [reflexivity|]. destruct (nm_get i (updated s)) eqn:Eu; [reflexivity|].
  cbn [snd]. unfold is_stale. destruct (i <? real_stored_len s) eqn:E2; [reflexivity|]. exfalso.
  destruct (Icov i ltac:(lia) ltac:(lia)) as [H|H]; [congruence|]. rewrite H in Eh.
  destruct (holes s); [cbn in H; discriminate H|discriminate Eh].
Qed.

Lemma Inv_init k0 : Inv (rv_init k0).
Proof.
  unfold Inv, Cov, rv_init, real_stored_len, vr_len, rlen. cbn.
  split; [intros i H1 H2; lia|].
  repeat split; intros; try lia; try congruence; try discriminate; try constructor.
Qed.
Lemma R_init k0 : R (rv_init k0) (sv_init k0).
Proof. unfold R, rv_init, sv_init, slen, rlen. cbn. repeat split. intros i H. unfold len in H. cbn [length] in H. lia. Qed.

Definition hdrf (s : rv) := (stamp s, hdr_modified s, hdr_disk s).
Definition holef (s : rv) := (has_stored_holes s, holes_region s).
Definition prevf (s : rv) := (changes s, k s, prev_pushed s, prev_stored_len s, prev_holes s, prev_updated s).

(* the state right after a successful write(): nothing buffered, everything on disk *)
Definition Normal (s : rv) : Prop :=
  pushed s = [] /\ updated s = [] /\ stored_len s = real_stored_len s /\
  hdr_modified s = false /\ hdr_disk s = stamp s /\
  holes_region s = (match holes s with [] => None | l => Some l end).
Lemma Normal_stored_len (s : rv) : Normal s -> stored_len s = rlen s.
Proof. intros (Hp & _). unfold rlen. rewrite Hp, len_nil. lia. Qed.

(* The phases of write().  `X_eq` gives the state a phase leaves as a chain of setters (a phase that has nothing to do
   returns its argument, which is the same state) and is what write_wrote and every later proof reads; `X_ok` (and
   whin_fields, write_ok_u, stamped_write_ok) states the same field by field, and no proof depends on it. *)

Lemma extend_vals_len (s : rv) : len (extend_vals tsize dec s) = stored_len s - real_stored_len s.
Proof. unfold extend_vals. rewrite len_map, len_seqN. lia. Qed.

(* the extension step (any_stored_vec.rs:71-85): afterwards the region backs every stored slot *)
Lemma write_extend_eq (s : rv) :
  exists r1, write_extend tsize dec s = (set_reg r1 s, None) /\ vr_disk r1 = disk s ++ extend_vals tsize dec s.
Proof.
  unfold write_extend, extend_vals, disk, real_stored_len. destruct (N.ltb_spec (vr_len (reg s)) (stored_len s)).
  - destruct (vr_truncate_write_ok (reg s) (vr_len (reg s)) (extend_vals tsize dec s) (N.le_refl _)) as (r' & E & Hd).
    unfold extend_vals, real_stored_len in E, Hd. rewrite E. exists r'. split; [reflexivity|].
    rewrite Hd. f_equal. apply take_all, N.le_refl.
  - exists (reg s). split; [now destruct s|]. replace (N.to_nat (stored_len s - vr_len (reg s))) with O by lia.
    symmetry. apply app_nil_r.
Qed.
Lemma write_extend_ok (s : rv) :
  exists se, write_extend tsize dec s = (se, None) /\ stored_len se <= real_stored_len se /\
    (forall i, i < real_stored_len s -> get (disk se) i = get (disk s) i) /\
    (forall i, real_stored_len s <= i -> i < stored_len s ->
       get (disk se) i = Some (match nm_get i (updated s) with Some v => v | None => zero_val tsize dec end)) /\
    stored_len se = stored_len s /\ pushed se = pushed s /\ holes se = holes s /\ updated se = updated s /\
    holef se = holef s /\ hdrf se = hdrf s /\ prevf se = prevf s.
Proof.
  destruct (write_extend_eq s) as (r1 & -> & D). eexists. split; [reflexivity|].
  unfold real_stored_len, disk, vr_len in *. rv_fields. rewrite D, len_app, extend_vals_len. unfold real_stored_len, vr_len.
  split; [lia|]. split; [intros i Hi; now apply get_app_l|]. split; [|repeat split].
  intros i H1 H2. rewrite get_app_r by exact H1. unfold extend_vals. rewrite get_map_seqN.
  unfold real_stored_len, vr_len. match goal with |- context [?x <? ?y] => destruct (N.ltb_spec x y); [|lia] end.
  now rewrite (N.add_comm _ (i - _)), N.sub_add by exact H1.
Qed.

Lemma write_data_eq (s : rv) : stored_len s <= real_stored_len s ->
  exists r2, write_data s = (set_stored_len (rlen s) (set_pushed [] (set_reg r2 s)), None) /\
             vr_disk r2 = take (stored_len s) (disk s) ++ pushed s.
Proof.
  intros H1. unfold write_data, rlen, real_stored_len, disk in *.
  destruct (N.eqb_spec (len (pushed s)) 0) as [Ep|Ep]; cbn [negb].
  - rewrite Ep, N.add_0_r. apply len_0_nil in Ep. rewrite Ep, app_nil_r.
    destruct (N.ltb_spec (stored_len s) (vr_len (reg s))).
    + destruct (vr_truncate_ok (reg s) (stored_len s) H1) as (r' & -> & Hd). exists r'. split; [|exact Hd].
      destruct s; cbn in *; now subst.
    + exists (reg s). split; [destruct s; cbn in *; now subst|]. symmetry. apply take_all. unfold vr_len in *. lia.
  - destruct (vr_truncate_write_ok (reg s) (stored_len s) (pushed s) H1) as (r' & Hw & Hd).
    rv_fields. rewrite Hw. exists r'. split; [reflexivity|exact Hd].
Qed.
Lemma write_data_ok (s : rv) : stored_len s <= real_stored_len s ->
  exists s1, write_data s = (s1, None) /\ pushed s1 = [] /\ stored_len s1 = rlen s /\ real_stored_len s1 = rlen s /\
    (forall i, i < rlen s -> get (disk s1) i = if i <? stored_len s then get (disk s) i else get (pushed s) (i - stored_len s)) /\
    holes s1 = holes s /\ updated s1 = updated s /\ holef s1 = holef s /\ hdrf s1 = hdrf s /\ prevf s1 = prevf s.
Proof.
  intros H. destruct (write_data_eq s H) as (r2 & -> & D). eexists. split; [reflexivity|].
  unfold real_stored_len, disk, rlen, vr_len in *. rv_fields. rewrite D, len_app, len_take.
  repeat split; try lia. intros i Hi. destruct (N.ltb_spec i (stored_len s)).
  - rewrite get_app_l, get_take_lt by (rewrite ?len_take; lia). reflexivity.
  - rewrite get_app_r, len_take by (rewrite len_take; lia). f_equal. lia.
Qed.

Lemma write_updates_eq (b : bool) (s1 : rv) :
  NoDup (nm_keys (updated s1)) -> (forall i, nm_get i (updated s1) <> None -> i < real_stored_len s1) ->
  exists r3, write_updates b s1 = (set_updated [] (set_reg r3 s1), Ok tt) /\ vr_len r3 = real_stored_len s1 /\
    forall j, get (vr_disk r3) j = match nm_get j (updated s1) with Some v => Some v | None => get (disk s1) j end.
Proof.
  intros Hd Hk. destruct (write_each_ok (updated s1) (reg s1) Hd Hk) as (r' & Ha & Hb & Hl & Hg).
  exists r'. split; [|split; assumption]. unfold write_updates. destruct (updated s1) eqn:Eu.
  - injection Ha as <-. destruct s1; cbn in *; now subst.
  - rv_fields. destruct b; [rewrite Ha|rewrite Hb]; reflexivity.
Qed.
Lemma write_updates_ok (b : bool) (s1 : rv) :
  NoDup (nm_keys (updated s1)) -> (forall i, nm_get i (updated s1) <> None -> i < real_stored_len s1) ->
  exists s2, write_updates b s1 = (s2, Ok tt) /\ updated s2 = [] /\ real_stored_len s2 = real_stored_len s1 /\
    (forall j, get (disk s2) j = match nm_get j (updated s1) with Some v => Some v | None => get (disk s1) j end) /\
    stored_len s2 = stored_len s1 /\ pushed s2 = pushed s1 /\ holes s2 = holes s1 /\
    holef s2 = holef s1 /\ hdrf s2 = hdrf s1 /\ prevf s2 = prevf s1.
Proof.
  intros Hd Hk. destruct (write_updates_eq b s1 Hd Hk) as (r3 & -> & L & D). eexists. split; [reflexivity|].
  repeat split; assumption.
Qed.

Lemma write_holes_eq (s2 : rv) : (has_stored_holes s2 = true <-> holes_region s2 <> None) ->
  exists b, write_holes (has_stored_holes s2) s2 =
    (set_holes_region (match holes s2 with [] => None | l => Some l end)
       (set_hsh (match holes s2 with [] => false | _ => true end) s2), Ok b).
Proof.
  intros Hi. unfold write_holes. destruct (holes s2); [|eauto].
  destruct (has_stored_holes s2) eqn:E; rv_fields; destruct (holes_region s2) eqn:Er; eauto.
  - exfalso. now apply Hi.
  - exfalso. assert (false = true) by (apply Hi; discriminate). discriminate.
  - exists true. f_equal. destruct s2; cbn in *; now subst.
Qed.
Lemma write_holes_ok (s2 : rv) :
  (has_stored_holes s2 = true <-> holes_region s2 <> None) ->
  exists b s3, write_holes (has_stored_holes s2) s2 = (s3, Ok b) /\
    holes_region s3 = (match holes s2 with [] => None | l => Some l end) /\
    (has_stored_holes s3 = true <-> holes_region s3 <> None) /\
    reg s3 = reg s2 /\ stored_len s3 = stored_len s2 /\ pushed s3 = pushed s2 /\ holes s3 = holes s2 /\
    updated s3 = updated s2 /\ hdrf s3 = hdrf s2 /\ prevf s3 = prevf s2.
Proof.
  intros Hi. destruct (write_holes_eq s2 Hi) as (b & ->). do 2 eexists. split; [reflexivity|]. rv_fields.
  repeat split; auto; destruct (holes s2); congruence.
Qed.

Lemma whin_fields (s : rv) :
  let s0 := write_header_if_needed s in
  reg s0 = reg s /\ stored_len s0 = stored_len s /\ pushed s0 = pushed s /\ holes s0 = holes s /\ updated s0 = updated s /\
  holef s0 = holef s /\ prevf s0 = prevf s /\ stamp s0 = stamp s /\
  ((hdr_modified s = false -> hdr_disk s = stamp s) -> hdr_modified s0 = false /\ hdr_disk s0 = stamp s0).
Proof. rewrite write_header_eq. cbn. repeat split. destruct (hdr_modified s); auto. Qed.

(* slots whose underlying value write() keeps: all but a DELETED slot that is neither on disk nor in `updated`
   (write() stores zero bytes there; nothing can read them: the slot is deleted) *)
Definition backed (s : rv) (i : N) : Prop := i < real_stored_len s \/ stored_len s <= i \/ nm_get i (updated s) <> None.

Lemma Inv_backed (s : rv) i : Inv s -> ns_mem i (holes s) = false -> backed s i.
Proof.
  intros (Icov & _) Hm. unfold backed.
  destruct (N.lt_ge_cases i (real_stored_len s)) as [A|A]; [now left|]. right.
  destruct (N.le_gt_cases (stored_len s) i) as [B|B]; [now left|]. right.
  destruct (Icov i A B) as [C|C]; [exact C|congruence].
Qed.

Lemma uopt_some (s : rv) i : i < rlen s -> exists x, uopt s i = Some x.
Proof.
  intros Hi. unfold uopt. destruct (N.leb_spec (stored_len s) i).
  - apply get_some. unfold rlen in Hi. lia.
  - destruct (nm_get i (updated s)); eauto.
Qed.

(* what write() guarantees, whatever it is wrapped in (stamped write, commit) *)
Definition Wrote (s s' : rv) : Prop :=
  Inv s' /\ Normal s' /\ rlen s' = rlen s /\ holes s' = holes s /\
  forall i, i < rlen s -> backed s i -> uopt s' i = uopt s i.
Lemma Wrote_inv (s s' : rv) : Wrote s s' -> Inv s'.
Proof. intros (H & _). exact H. Qed.
Lemma Wrote_normal (s s' : rv) : Wrote s s' -> Normal s'.
Proof. intros (_ & H & _). exact H. Qed.
Lemma Wrote_rlen (s s' : rv) : Wrote s s' -> rlen s' = rlen s.
Proof. intros (_ & _ & H & _). exact H. Qed.

Theorem write_wrote (s : rv) : Inv s ->
  exists b s', rv_write s = (s', Ok b) /\ stamp s' = stamp s /\ prevf s' = prevf s /\ Wrote s s'.
Proof.
  intros (Icov & Iupd & Inodup & Ihol & Ihsh & Ihdr).
  assert (Hh : (if hdr_modified s then stamp s else hdr_disk s) = stamp s) by (destruct (hdr_modified s); auto).
  unfold RvModel.rv_write. rewrite write_header_eq. cbv zeta. unfold real_stored_len. rv_fields.
  destruct (negb (stored_len s <? vr_len (reg s)) && _ && _ && _ && _ && _) eqn:Ec.
  - (* nothing to write *)
    repeat (apply andb_true_iff in Ec as [Ec ?]).
    assert (Hp : pushed s = []) by (apply len_0_nil; destruct (len (pushed s) =? 0) eqn:E; [lia|discriminate]).
    assert (Hu : updated s = []) by (destruct (updated s); [reflexivity|discriminate]).
    assert (Hl : holes s = []) by (destruct (holes s); [reflexivity|discriminate]).
    assert (Hr : holes_region s = None).
    { destruct (holes_region s) eqn:Er; [|reflexivity]. destruct (has_stored_holes s); [discriminate|].
      assert (false = true) by (apply Ihsh; discriminate). discriminate. }
    do 2 eexists. do 3 (split; [reflexivity|]). split; [|split]; [| |repeat split].
    + unfold Inv, Cov, rlen, real_stored_len. rv_fields. inv_split; auto.
    + unfold Normal, real_stored_len. rv_fields. rewrite Hl. repeat split; auto. lia.
  - clear Ec.
    match goal with |- context [write_extend _ _ ?x] => destruct (write_extend_eq x) as (r1 & -> & D1) end.
    unfold disk in D1. rv_fields in D1.
    assert (L1 : vr_len r1 = N.max (stored_len s) (vr_len (reg s))).
    { unfold vr_len at 1. rewrite D1, len_app, extend_vals_len. unfold real_stored_len, vr_len. rv_fields. lia. }
    match goal with |- context [write_data ?x] => destruct (write_data_eq x) as (r2 & -> & D2) end;
      [unfold real_stored_len; rv_fields; lia|].
    unfold rlen, disk in D2 |- *. rv_fields in D2. rv_fields.
    assert (L2 : vr_len r2 = stored_len s + len (pushed s)).
    { unfold vr_len at 1. rewrite D2, len_app, len_take. unfold vr_len in L1. lia. }
    match goal with |- context [write_updates ?b ?x] => destruct (write_updates_eq b x) as (r3 & -> & L3 & D3) end.
    { exact Inodup. }
    { unfold real_stored_len. rv_fields. intros i Hi. rewrite L2. specialize (Iupd i Hi). lia. }
    unfold real_stored_len, disk in L3, D3. rv_fields in L3 D3. rewrite L2 in L3.
    match goal with |- context [write_holes _ ?x] => destruct (write_holes_eq x) as (b & Hw) end; [exact Ihsh|].
    rv_fields in Hw. rewrite Hw. clear Hw.
    do 2 eexists. do 3 (split; [reflexivity|]). split; [|split]; [| |repeat split].
    + unfold Inv, Cov, real_stored_len, rlen in *. rv_fields. rewrite L3, len_nil, N.add_0_r.
      inv_split; auto; try (intros; lia); try (intros i Hi; cbv [nm_get] in Hi; congruence); try apply NoDup_nil.
      destruct (holes s); split; congruence.
    + unfold Normal, real_stored_len. rv_fields. repeat split; auto.
    + unfold rlen. rv_fields. rewrite len_nil. lia.
    + (* a backed slot reads, from the final region r3, the value it showed before: r3 is r2 under the old `updated`
         (D3); r2 is r1 cut at stored_len, then `pushed` (D2); r1 is the old region, then the extension (D1) *)
      intros i Hi Hb. unfold rlen in Hi. unfold uopt at 1. rv_fields. destruct (N.leb_spec (stored_len s + len (pushed s)) i); [lia|].
      change (nm_get i []) with (@None T). destruct (uopt_some s i Hi) as [x Hx]. rewrite Hx. f_equal.
      apply phys_read_disk. unfold disk. rv_fields. rewrite D3, <- Hx. unfold uopt.
      destruct (nm_get i (updated s)) eqn:Eu.
      * specialize (Iupd i ltac:(congruence)). destruct (N.leb_spec (stored_len s) i); [lia|reflexivity].
      * rewrite D2. assert (Lt : len (take (stored_len s) (vr_disk r1)) = stored_len s) by (rewrite len_take; unfold vr_len in L1; lia).
        destruct (N.leb_spec (stored_len s) i).
        -- rewrite get_app_r, Lt by lia. reflexivity.
        -- rewrite get_app_l, get_take_lt, D1 by lia.
           assert (Hir : i < vr_len (reg s)) by (destruct Hb as [Hb|[Hb|Hb]]; [exact Hb|lia|congruence]).
           rewrite get_app_l by exact Hir. destruct (get_some (vr_disk (reg s)) i Hir) as [y Hy].
           rewrite Hy. f_equal. symmetry. now apply phys_read_disk.
Qed.
Theorem write_ok_u (s : rv) : Inv s ->
  exists b s', rv_write s = (s', Ok b) /\ Inv s' /\ Normal s' /\ rlen s' = rlen s /\ holes s' = holes s /\
               stamp s' = stamp s /\ prevf s' = prevf s /\
               (forall i, i < rlen s -> backed s i -> uopt s' i = uopt s i).
Proof.
  intros HI. destruct (write_wrote s HI) as (b & s' & E & St & Pr & HI' & HN & L & Hh & U).
  exists b, s'. auto 10.
Qed.

Lemma Wrote_view (s s' : rv) : Inv s -> Wrote s s' -> forall i, i < rlen s -> view_at s' i = view_at s i.
Proof.
  intros HI (_ & _ & _ & Hh & U) i Hi. rewrite !view_at_uopt, Hh. destruct (ns_mem i (holes s)) eqn:Em; [reflexivity|].
  apply U; [exact Hi|now apply Inv_backed].
Qed.
End REF.

Local Arguments ns_mem : simpl never.
Local Arguments nm_get : simpl never.

Section OPS.
Context {T : Type} (tsize : N) (dec : list N -> T).
Notation rv := (@rv T).
Notation view_at := (view_at tsize dec).
Notation Inv := (@Inv T).
Notation R := (@R T tsize dec).

Lemma holes_after_remove (h : nset) i j :
  ns_mem j (match h with [] => h | _ => ns_remove i h end) = negb (j =? i) && ns_mem j h.
Proof. destruct h as [|x t]; [cbn; now rewrite andb_false_r|]. apply ns_mem_remove. Qed.
Lemma upd_after_remove (u : nmap T) i j :
  nm_get j (match u with [] => u | _ => nm_remove i u end) = if j =? i then None else nm_get j u.
Proof. destruct u as [|x t]; [cbn; now destruct (j =? i)|]. apply nm_get_remove. Qed.
Lemma NoDup_after_remove (u : nmap T) i : NoDup (nm_keys u) -> NoDup (nm_keys (match u with [] => u | _ => nm_remove i u end)).
Proof. destruct u; auto. intros. unfold nm_remove. now apply NoDup_keys_filter. Qed.

Lemma view_some_of_not_hole (s : rv) i : i < rlen s -> ns_mem i (holes s) = false -> exists x, view_at s i = Some x.
Proof. intros Hi Hm. rewrite view_at_uopt, Hm. now apply uopt_some. Qed.
Lemma view_none_iff (s : rv) i : i < rlen s -> (view_at s i = None <-> ns_mem i (holes s) = true).
Proof.
  intros Hi. split.
  - intros H. destruct (ns_mem i (holes s)) eqn:E; auto. destruct (view_some_of_not_hole s i Hi E) as [x Hx]. congruence.
  - intros H. now rewrite view_at_eq, H.
Qed.

Lemma R_restamp (s s' : rv) a a' st : R s a -> rlen s' = rlen s -> stamp s' = st -> sstamp a' = st -> contents a' = contents a ->
  (forall i, i < rlen s -> view_at s' i = view_at s i) -> R s' a'.
Proof.
  intros (R1 & R2 & R3) L St Sa Hc V. unfold RvRefine.R, slen in *. rewrite L, Hc. split; [congruence|]. split; [exact R2|].
  intros i Hi. rewrite V by exact Hi. now apply R3.
Qed.
Lemma R_same_view (s s' : rv) a : R s a -> rlen s' = rlen s -> stamp s' = stamp s ->
  (forall i, i < rlen s -> view_at s' i = view_at s i) -> R s' a.
Proof. intros HR L St V. apply (R_restamp s s' a a (stamp s)); auto. apply HR. Qed.
Lemma R_a_ext (s : rv) a a' : R s a -> contents a' = contents a -> sstamp a' = sstamp a -> R s a'.
Proof. intros (R1 & R2 & R3) Hc Hs. unfold RvRefine.R, slen in *. rewrite Hc, Hs. auto. Qed.
Lemma R_set (s s' : rv) a i x :
  R s a -> i < rlen s -> rlen s' = rlen s -> stamp s' = stamp s ->
  (forall j, view_at s' j = if j =? i then x else view_at s j) ->
  R s' (set_contents (set_nth (contents a) (N.to_nat i) x) a).
Proof.
  intros (R1 & R2 & R3) Hi L St V. unfold RvRefine.R, slen in *. cbn [contents set_contents sstamp].
  rewrite len_set_nth, L. split; [congruence|]. split; [exact R2|]. intros j Hj.
  rewrite get_set_nth by lia. rewrite V. destruct (j =? i); auto.
Qed.
Lemma push_refines (s : rv) a v : Inv s -> R s a ->
  Inv (rv_push v s) /\ R (rv_push v s) (set_contents (contents a ++ [Some v]) a).
Proof.
  intros (Icov & Iupd & Inodup & Ihol & Ihsh & Ihdr) (R1 & R2 & R3). unfold rv_push.
  assert (L : rlen (set_pushed (pushed s ++ [v]) s) = rlen s + 1) by (unfold rlen; rv_fields; rewrite len_app; change (len [v]) with 1; lia).
  split.
  - unfold RvRefine.Inv, Cov, real_stored_len. rewrite L. rv_fields. inv_split; auto.
    intros i Hi. specialize (Ihol i Hi). lia.
  - unfold RvRefine.R, slen in *. rewrite L. cbn [contents set_contents sstamp]. rewrite len_app.
    split; [exact R1|]. split; [rewrite R2; reflexivity|]. intros i Hi. rewrite view_at_eq. rv_fields.
    destruct (N.lt_ge_cases i (rlen s)) as [Hlt|Hge].
    + rewrite get_app_l, (R3 i Hlt), view_at_eq by lia. unfold rlen in Hlt.
      destruct (N.leb_spec (stored_len s) i); [|reflexivity]. now rewrite get_app_l by lia.
    + assert (i = rlen s) by (change (len [Some v]) with 1 in Hi; lia). subst i.
      rewrite get_app_r, R2, N.sub_diag by lia.
      destruct (ns_mem (rlen s) (holes s)) eqn:Em; [specialize (Ihol _ Em); lia|]. unfold rlen.
      destruct (N.leb_spec (stored_len s) (stored_len s + len (pushed s))); [|lia].
      replace (stored_len s + len (pushed s) - stored_len s) with (len (pushed s)) by lia. now rewrite get_app_len.
Qed.

Lemma update_at_view (s : rv) i v : Inv s -> i < rlen s ->
  exists s', rv_update_at i v s = (s', Ok tt) /\ Inv s' /\ rlen s' = rlen s /\ stamp s' = stamp s /\
             forall j, view_at s' j = if j =? i then Some v else view_at s j.
Proof.
  intros (Icov & Iupd & Inodup & Ihol & Ihsh & Ihdr) Hi. unfold rlen in Hi.
  assert (Hh : forall j, ns_mem j (ns_remove i (holes s)) = true -> ns_mem j (holes s) = true)
    by (intros j Hj; rewrite ns_mem_remove in Hj; now apply andb_true_iff in Hj).
  destruct (N.lt_ge_cases i (stored_len s)) as [E|E].
  - rewrite update_at_stored by exact E. eexists. split; [reflexivity|]. split; [|split; [reflexivity|split; [reflexivity|]]].
    + unfold RvRefine.Inv, Cov, rlen, real_stored_len in *. rv_fields. inv_split; auto.
      * intros j A1 A2. rewrite ns_mem_remove, nm_get_insert.
        destruct (N.eqb_spec j i) as [|Hne]; [left; discriminate|]. now apply Icov.
      * intros j. rewrite nm_get_insert. destruct (N.eqb_spec j i) as [->|]; auto.
      * now apply NoDup_keys_insert.
    + intros j. rewrite !view_at_eq. unfold RvModel.phys_read. rv_fields. rewrite ns_mem_remove, nm_get_insert.
      destruct (N.eqb_spec j i) as [->|]; [|reflexivity]. destruct (N.leb_spec (stored_len s) i); [lia|reflexivity].
  - destruct (get_some (pushed s) (i - stored_len s)) as [x Hx]; [lia|].
    rewrite (update_at_pushed i v s x E Hx). eexists. split; [reflexivity|].
    split; [|split; [unfold rlen; rv_fields; now rewrite len_set_nth|split; [reflexivity|]]].
    + unfold RvRefine.Inv, Cov, rlen, real_stored_len in *. rv_fields. rewrite len_set_nth. inv_split; auto.
      intros j A1 A2. rewrite ns_mem_remove. destruct (N.eqb_spec j i) as [|Hne]; [lia|]. now apply Icov.
    + intros j. rewrite !view_at_eq. unfold RvModel.phys_read. rv_fields. rewrite ns_mem_remove.
      destruct (N.eqb_spec j i) as [->|Hne]; cbn [negb andb].
      * destruct (N.leb_spec (stored_len s) i); [|lia]. now rewrite get_set_nth, N.eqb_refl by lia.
      * destruct (ns_mem j (holes s)); [reflexivity|]. destruct (N.leb_spec (stored_len s) j); [|reflexivity].
        rewrite get_set_nth by lia. destruct (N.eqb_spec (j - stored_len s) (i - stored_len s)); [lia|reflexivity].
Qed.

Lemma delete_view (s : rv) i : Inv s -> i < rlen s ->
  Inv (unchecked_delete_at i s) /\ rlen (unchecked_delete_at i s) = rlen s /\ stamp (unchecked_delete_at i s) = stamp s /\
  forall j, view_at (unchecked_delete_at i s) j = if j =? i then None else view_at s j.
Proof.
  intros (Icov & Iupd & Inodup & Ihol & Ihsh & Ihdr) Hi. rewrite unchecked_delete_at_eq. split; [|split; [reflexivity|split; [reflexivity|]]].
  - unfold RvRefine.Inv, Cov, rlen, real_stored_len in *. rv_fields. inv_split; auto.
    + intros j A1 A2. rewrite nm_get_remove, ns_mem_insert. destruct (N.eqb_spec j i); [now right|]. now apply Icov.
    + intros j. rewrite nm_get_remove. destruct (j =? i); [congruence|auto].
    + unfold nm_remove. now apply NoDup_keys_filter.
    + intros j Hj. rewrite ns_mem_insert in Hj. apply orb_true_iff in Hj as [Hj|Hj]; [apply N.eqb_eq in Hj; lia|auto].
  - intros j. rewrite !view_at_eq. unfold RvModel.phys_read. rv_fields. rewrite ns_mem_insert, nm_get_remove.
    destruct (j =? i); reflexivity.
Qed.

Lemma truncate_refines (s : rv) a idx : Inv s -> R s a ->
  Inv (rv_truncate idx s) /\ R (rv_truncate idx s) (if idx <? slen a then set_contents (take idx (contents a)) a else a).
Proof.
  intros (Icov & Iupd & Inodup & Ihol & Ihsh & Ihdr) (R1 & R2 & R3). rewrite rv_truncate_eq. unfold truncate_dirty_at.
  set (s' := set_stored_len _ _).
  assert (L : rlen s' = N.min idx (rlen s)) by (unfold rlen, s'; rv_fields; rewrite len_take; lia).
  split.
  - unfold RvRefine.Inv, Cov, real_stored_len in *. rewrite L. unfold rlen, s' in *. rv_fields. inv_split; auto.
    + intros j A1 A2. rewrite nm_get_below, ns_mem_below. destruct (N.ltb_spec j idx); [|lia]. apply Icov; lia.
    + intros j. rewrite nm_get_below. destruct (N.ltb_spec j idx); [|congruence]. intros Hj. specialize (Iupd j Hj). lia.
    + unfold nm_below. now apply NoDup_keys_filter.
    + intros j Hj. rewrite ns_mem_below in Hj. apply andb_true_iff in Hj as [Hj1 Hj2]. specialize (Ihol j Hj2). lia.
  - assert (V : forall j, j < N.min idx (rlen s) -> view_at s' j = view_at s j).
    { intros j Hj. rewrite !view_at_eq. unfold RvModel.phys_read, s'. rv_fields. rewrite ns_mem_below, nm_get_below.
      destruct (N.ltb_spec j idx); [|lia]. cbn [andb]. destruct (ns_mem j (holes s)); [reflexivity|].
      destruct (N.leb_spec (stored_len s) j).
      - destruct (N.leb_spec (N.min idx (stored_len s)) j); [|lia].
        replace (N.min idx (stored_len s)) with (stored_len s) by lia. apply get_take_lt. lia.
      - destruct (N.leb_spec (N.min idx (stored_len s)) j); [lia|reflexivity]. }
    unfold RvRefine.R, slen in *. rewrite L. destruct (N.ltb_spec idx (len (contents a))); cbn [contents set_contents sstamp].
    + rewrite len_take. split; [exact R1|]. split; [lia|]. intros j Hj. rewrite get_take_lt, V by lia. apply R3. lia.
    + split; [exact R1|]. split; [lia|]. intros j Hj. rewrite V by exact Hj. apply R3. lia.
Qed.

(* any state with the fields of a truncation, in whichever of the three shapes of truncate_pushed it is given *)
Lemma shrink_refines (s s' : rv) a idx n1 p1 :
  Inv s -> R s a ->
  reg s' = reg s -> holes s' = ns_below idx (holes s) -> updated s' = nm_below idx (updated s) ->
  stored_len s' = n1 -> pushed s' = p1 -> holef s' = holef s -> hdrf s' = hdrf s ->
  n1 <= stored_len s -> n1 + len p1 = N.min idx (rlen s) ->
  (forall j, n1 <= j -> j < N.min idx (rlen s) -> stored_len s <= j /\ get p1 (j - n1) = get (pushed s) (j - stored_len s)) ->
  Inv s' /\ R s' (if idx <? slen a then set_contents (take idx (contents a)) a else a).
Proof.
  intros HI HR Fr Fh Fu Fs Fp [= Fh1 Fh2] [= Fd1 Fd2 Fd3] Hn Hsum Hp.
  (* n1 and p1 can only be those of rv_truncate_eq, so s' has the core of rv_truncate idx s *)
  assert (Hc : core (rv_truncate idx s) = core s').
  { rewrite rv_truncate_eq. unfold core, truncate_dirty_at, rlen in *. rv_fields.
    rewrite Fr, Fh, Fu, Fs, Fp, Fh1, Fh2, Fd1, Fd2, Fd3.
    assert (E1 : len p1 = 0 \/ n1 = stored_len s).
    { destruct (N.eq_dec (len p1) 0); [now left|right]. destruct (Hp n1); lia. }
    assert (E2 : N.min idx (stored_len s) = n1) by (destruct E1; [|lia]; destruct (N.lt_ge_cases n1 (stored_len s)); lia).
    assert (E3 : take (idx - stored_len s) (pushed s) = p1).
    { apply list_ext_get. intros j. destruct (N.lt_ge_cases j (len p1)) as [Hj|Hj].
      - destruct E1 as [E1|E1]; [lia|]. destruct (Hp (n1 + j)) as [_ Hg]; [lia|lia|].
        rewrite get_take_lt by lia. replace (n1 + j - n1) with j in Hg by lia. rewrite Hg. f_equal. lia.
      - rewrite (get_none p1) by exact Hj. apply get_none. rewrite len_take. lia. }
    now rewrite E2, E3. }
  destruct (truncate_refines s a idx HI HR) as [HI' HR'].
  split; [exact (Inv_core _ _ Hc HI')|exact (R_core tsize dec _ _ _ Hc HR')].
Qed.

Lemma reset_fields (s : rv) : (hdr_modified s = false -> hdr_disk s = stamp s) ->
  let s' := rv_reset s in
  pushed s' = [] /\ stored_len s' = 0 /\ holes s' = [] /\ updated s' = [] /\ reg s' = reg s /\
  has_stored_holes s' = has_stored_holes s /\ holes_region s' = holes_region s /\
  stamp s' = 0 /\ (hdr_modified s' = false -> hdr_disk s' = 0).
Proof.
  intros Ihdr. unfold rv_reset, reset_base. rewrite update_stamp_eq, rv_truncate_eq. unfold truncate_dirty_at. rv_fields.
  cbn [nm_below ns_below filter]. repeat split. destruct (N.eqb_spec (stamp s) 0) as [E|]; [|discriminate].
  intros Hm. rewrite <- E. auto.
Qed.
Lemma reset_refines (s : rv) k0 : Inv s ->
  Inv (rv_reset s) /\ R (rv_reset s) (mkSv [] 0 (mkSnap [] 0) [] k0) /\ stored_len (rv_reset s) = 0.
Proof.
  intros (Icov & Iupd & Inodup & Ihol & Ihsh & Ihdr). destruct (reset_fields s Ihdr) as (Fp & Fs & Fh & Fu & Fr & F1 & F2 & Fst & Fd).
  cbv zeta in *. split; [|split; [|exact Fs]].
  - unfold RvRefine.Inv, Cov, rlen. rewrite Fp, Fs, Fh, Fu, F1, F2, Fst. inv_split; auto; try (intros; lia); try apply NoDup_nil.
    + intros i H. now cbv [nm_get] in H.
    + intros i H. now cbv [ns_mem existsb] in H.
  - unfold RvRefine.R, slen, rlen. rewrite Fp, Fs, Fst. repeat split. intros i Hi. rewrite (@len_nil T) in Hi. lia.
Qed.

Lemma first_none_some (l : list (option T)) b h : first_none l b = Some h ->
  b <= h /\ get l (h - b) = Some None /\ forall j, j < h - b -> get l j <> Some None.
Proof.
  revert b; induction l as [|x t IH]; intros b; cbn [first_none]; [discriminate|].
  destruct x as [v|].
  - intros H. destruct (IH _ H) as (H1 & H2 & H3). split; [lia|]. split.
    + rewrite get_cons. destruct (N.eqb_spec (h - b) 0); [lia|]. now replace (h - b - 1) with (h - (b + 1)) by lia.
    + intros j Hj. rewrite get_cons. destruct (N.eqb_spec j 0); [discriminate|]. apply H3. lia.
  - intros [= <-]. split; [lia|]. rewrite N.sub_diag. split; [reflexivity|]. intros j Hj. lia.
Qed.
Lemma first_none_none (l : list (option T)) b : first_none l b = None -> forall j, get l j <> Some None.
Proof.
  revert b; induction l as [|x t IH]; intros b; cbn [first_none]; intros H j.
  - now rewrite get_none by apply N.le_0_l.
  - destruct x as [v|]; [|discriminate]. rewrite get_cons. destruct (j =? 0); [discriminate|]. eapply IH; eauto.
Qed.

Lemma first_none_is_min (s : rv) a : Inv s -> R s a -> first_none (contents a) 0 = ns_min (holes s).
Proof.
  intros HI (R1 & R2 & R3). pose proof (Inv_hol s HI) as Ihol. unfold slen in R2.
  assert (Hiff : forall j, j < rlen s -> (get (contents a) j = Some None <-> ns_mem j (holes s) = true)).
  { intros j Hj. rewrite (R3 j Hj). pose proof (view_none_iff s j Hj) as Hv. split.
    - intros [= H]. now apply Hv.
    - intros H. f_equal. now apply Hv. }
  destruct (first_none (contents a) 0) as [h|] eqn:Ef.
  - destruct (first_none_some _ _ _ Ef) as (_ & H2 & H3). rewrite N.sub_0_r in *.
    assert (Hh : h < rlen s) by (rewrite <- R2; eapply get_some_lt; eauto).
    assert (Hm : ns_mem h (holes s) = true) by (now apply Hiff).
    destruct (ns_min (holes s)) as [m|] eqn:Em.
    + pose proof (ns_min_le _ _ _ Em Hm) as Hle. pose proof (ns_min_mem _ _ Em) as Hmm.
      destruct (N.eq_dec m h) as [->|Hne]; auto. exfalso.
      apply (H3 m ltac:(lia)). apply Hiff; auto.
    + apply ns_min_none in Em. rewrite Em in Hm. discriminate.
  - destruct (ns_min (holes s)) as [m|] eqn:Em; auto. exfalso.
    pose proof (ns_min_mem _ _ Em) as Hmm. apply (first_none_none _ _ Ef m). apply Hiff; auto.
Qed.
End OPS.

Section STEP.
Context {T : Type} (tsize : N) (enc : T -> list N) (dec : list N -> T).
Notation rv := (@rv T).
Notation view_at := (view_at tsize dec).
Notation Inv := (@Inv T).
Notation R := (@R T tsize dec).
Notation step := (step tsize enc dec).
Notation stamped_write := (stamped_write tsize dec).
Notation run := (run tsize enc dec).

(* write_wrote with the view (Wrote_view) for the underlying values: the form of Props/C03raw *)
Theorem write_ok (s : rv) : Inv s ->
  exists b s', rv_write tsize dec s = (s', Ok b) /\ Inv s' /\ Normal s' /\ rlen s' = rlen s /\ holes s' = holes s /\
               stamp s' = stamp s /\ prevf s' = prevf s /\
               (forall i, i < rlen s -> view_at s' i = view_at s i).
Proof using tsize enc dec.
  intros HI. destruct (write_wrote tsize dec s HI) as (b & s' & Hw & St & Pr & W).
  pose proof (Wrote_view tsize dec s s' HI W) as V. destruct W as (HI' & HN & L & Hh & _).
  exists b, s'. do 7 (split; [assumption|]). exact V.
Qed.

Lemma Inv_update_stamp (s : rv) st : Inv s -> Inv (update_stamp st s).
Proof.
  intros (Icov & Iupd & Inodup & Ihol & Ihsh & Ihdr). rewrite update_stamp_eq.
  unfold RvRefine.Inv, Cov, rlen, real_stored_len. rv_fields. inv_split; auto.
  destruct (N.eqb_spec (stamp s) st) as [<-|]; [exact Ihdr|discriminate].
Qed.
Lemma update_stamp_fields (s : rv) st :
  rlen (update_stamp st s) = rlen s /\ stamp (update_stamp st s) = st /\ prevf (update_stamp st s) = prevf s /\
  forall i, view_at (update_stamp st s) i = view_at s i.
Proof. rewrite update_stamp_eq. repeat split. Qed.

Lemma stamped_write_wrote (s : rv) st : Inv s ->
  exists s', stamped_write st s = (s', Ok tt) /\ stamp s' = st /\ prevf s' = prevf s /\ Wrote tsize dec s s'.
Proof.
  (* update_stamp touches none of the fields Wrote reads *)
  intros HI. unfold stamped_write. pose proof (Inv_update_stamp s st HI) as HI0. rewrite update_stamp_eq in *.
  destruct (write_wrote tsize dec _ HI0) as (b & s' & -> & St & Pr & W).
  exists s'. split; [reflexivity|]. split; [exact St|]. split; [exact Pr|exact W].
Qed.
Lemma stamped_write_ok (s : rv) st : Inv s ->
  exists s', stamped_write st s = (s', Ok tt) /\ Inv s' /\ Normal s' /\ rlen s' = rlen s /\ stamp s' = st /\
             prevf s' = prevf s /\ forall i, i < rlen s -> view_at s' i = view_at s i.
Proof.
  intros HI. destruct (stamped_write_wrote s st HI) as (s' & E & St & Pr & W).
  pose proof (Wrote_view tsize dec s s' HI W) as V. destruct W as (HI' & HN & L & _). exists s'. auto 8.
Qed.

(* save_prev, holes.save(), updated.clear_previous(): the baseline a successful commit takes *)
Definition rebase (s : rv) : rv :=
  set_prev_updated [] (set_prev_holes (holes s) (set_prev_pushed [] (set_prev_stored_len (stored_len s) s))).

Lemma commit_recording_wrote (s : rv) st : Inv s -> k s <> 0 ->
  exists s2, rv_commit tsize enc dec st s = (rebase s2, Ok tt) /\
    stamp s2 = st /\ k s2 = k s /\
    changes s2 = save_change_file (changes s) (k s) (stamp s) st (fst (serialize_raw_changes tsize enc dec s)) /\
    Wrote tsize dec s s2.
Proof.
  intros HI Hk. unfold rv_commit. destruct (N.eqb_spec (k s) 0); [contradiction|].
  destruct (serialize_raw_changes tsize enc dec s) as [data stl]. cbn [fst].
  set (s1 := set_changes _ (add_stale stl s)).
  destruct (stamped_write_wrote s1 st (Inv_core s s1 eq_refl HI)) as (s2 & -> & St & Pr & W).
  exists s2. injection Pr as Q1 Q2 _ _ _ _. split; [reflexivity|]. split; [exact St|]. split; [exact Q2|]. split; [exact Q1|exact W].
Qed.

(* what commit_recording_wrote says apart from the directory holds for every k, k = 0 (no change file) included *)
Lemma commit_ok (s : rv) st : Inv s ->
  exists s', rv_commit tsize enc dec st s = (s', Ok tt) /\ stamp s' = st /\ Wrote tsize dec s s'.
Proof.
  intros HI. destruct (N.eqb_spec (k s) 0) as [Ek|Ek].
  - unfold rv_commit. rewrite Ek. destruct (stamped_write_wrote s st HI) as (s' & E & St & _ & W). eauto.
  - destruct (commit_recording_wrote s st HI Ek) as (s2 & -> & St & _ & _ & W). eexists. split; [reflexivity|]. split; [exact St|exact W].
Qed.

Lemma reimport_ok (s : rv) : Inv s -> Normal s ->
  Inv (rv_reimport s) /\ rlen (rv_reimport s) = rlen s /\ stamp (rv_reimport s) = stamp s /\
  forall i, view_at (rv_reimport s) i = view_at s i.
Proof.
  intros (Icov & Iupd & Inodup & Ihol & Ihsh & Ihdr) (N1 & N2 & N3 & N4 & N5 & N6).
  assert (Hm : forall j, ns_mem j (match holes_region s with Some l => ns_of_list l | None => [] end) = ns_mem j (holes s)).
  { intros j. rewrite N6. destruct (holes s) eqn:Eh; [reflexivity|]. apply ns_mem_of_list. }
  unfold rv_reimport. split; [|split; [|split]].
  - unfold RvRefine.Inv, Cov, rlen, real_stored_len in *. rv_fields. rewrite len_nil. inv_split; auto; try (intros; lia).
    + intros i H. now cbv [nm_get] in H.
    + apply NoDup_nil.
    + intros j Hj. rewrite Hm in Hj. specialize (Ihol j Hj). rewrite N1, len_nil in Ihol. lia.
    + destruct (holes_region s); split; intros; congruence.
  - unfold rlen, real_stored_len in *. rv_fields. now rewrite N1, N3.
  - exact N5.
  - intros i. rewrite !view_at_eq. unfold RvModel.phys_read. rv_fields. now rewrite Hm, N1, N2, <- N3.
Qed.

Lemma fault_file_core f st (s : rv) : core (fault_file f st s) = core s.
Proof. unfold fault_file. destruct (changes s); [destruct (nm_get st l); [destruct (f l0)|]|]; reflexivity. Qed.

Definition plain_op (o : @op T) : Prop :=
  match o with Rollback | RollbackBefore _ | ResetUnsaved => False | _ => True end.
(* write()'s boolean ("was anything written") is not part of the reference; everything else is equal *)
Definition res_rel (o : @op T) (r r' : @ores T) : Prop :=
  match o with
  | Write | Flush => (exists b, r = RBool b) /\ (exists b, r' = RBool b)
  | _ => r = r'
  end.

(* The proofs that walk over `op` take its constructors in order, so a new operation is entered in: RvRollback.op and step,
   RvSpec.sstep, res_rel, plain_op and step_refines here, RvChain.plain_step_not_expanded; for an edit also RvChain.is_edit_op,
   edit_spec_frame, edit_frame, next_ed, strict (committed_count and strict_agree follow), and on the executable side
   RvFindings.is_edit, op_disciplined, next_edited and the alphabets. *)
Theorem step_refines (s : rv) a o : Inv s -> R s a -> plain_op o ->
  Inv (fst (step s o)) /\ R (fst (step s o)) (fst (sstep a o)) /\ res_rel o (snd (step s o)) (snd (sstep a o)).
Proof.
  intros HI HR Hp. pose proof HR as (R1 & R2 & R3).
  (* write(), stamped or not, inside a commit or not; [RUnit = RUnit] is res_rel for an operation that returns unit,
     so that Sw and Co close the whole goal *)
  assert (Sw : forall s' st a', Wrote tsize dec s s' -> stamp s' = st -> sstamp a' = st -> contents a' = contents a ->
               Inv s' /\ R s' a' /\ RUnit = RUnit :> @ores T).
  { intros s' st a' W St Sa Ca. pose proof (Wrote_view tsize dec s s' HI W) as V. pose proof (Wrote_rlen tsize dec s s' W) as L.
    split; [exact (Wrote_inv tsize dec s s' W)|]. split; [eapply R_restamp; eauto|reflexivity]. }
  assert (Wr : exists b s', rv_write tsize dec s = (s', Ok b) /\ Inv s' /\ Normal s' /\ R s' a).
  { destruct (write_wrote tsize dec s HI) as (b & s' & E & St & _ & W). exists b, s'.
    destruct (Sw s' (stamp s) a W St R1 eq_refl) as (HI' & HR' & _). pose proof (Wrote_normal tsize dec s s' W) as HN. auto. }
  assert (Co : forall s', core s' = core s -> Inv s' /\ R s' a /\ RUnit = RUnit :> @ores T).
  { intros s' Hc. symmetry in Hc. split; [exact (Inv_core _ _ Hc HI)|]. split; [exact (R_core tsize dec _ _ _ Hc HR)|reflexivity]. }
  destruct o as [v|i| | | | | |i v|i|i|v|st|st| |st|st|st n|st off x]; cbn [plain_op] in Hp; try contradiction;
    cbn [RvRollback.step sstep]; try (apply Co, fault_file_core).        (* the three faults on the change directory *)
  - destruct (push_refines tsize dec s a v HI HR). cbn [fst snd res_rel]. auto.
  - destruct (truncate_refines tsize dec s a i HI HR). cbn [fst snd res_rel]. auto.
  - destruct Wr as (b & s' & -> & HI' & _ & HR'). cbn [fst snd res_rel]. eauto 6.
  - destruct Wr as (b & s' & -> & HI' & _ & HR'). cbn [fst snd res_rel]. eauto 6.
  - destruct (reset_refines tsize dec s (sk a) HI) as (HI' & HR' & _). cbn [fst snd res_rel]. auto.
  - destruct Wr as (b & s' & -> & HI' & HN' & HR'). cbn [fst snd res_rel].
    destruct (reimport_ok s' HI' HN') as (HI2 & L2 & St2 & V2).
    split; [exact HI2|]. split; [|reflexivity]. eapply R_same_view; eauto.
  - rewrite R2. destruct (N.ltb_spec i (rlen s)).
    + destruct (update_at_view tsize dec s i v HI ltac:(lia)) as (s' & -> & HI' & L & St & V). cbn [fst snd res_rel of_unit].
      split; [exact HI'|]. split; [|reflexivity]. eapply R_set; eauto.
    + rewrite update_at_high by assumption. cbn [fst snd res_rel of_unit]. auto.
  - unfold rv_delete_at. rewrite R2. destruct (N.ltb_spec i (rlen s)); cbn [fst snd res_rel]; [|auto].
    destruct (delete_view tsize dec s i HI ltac:(lia)) as (HI' & L & St & V).
    split; [exact HI'|]. split; [|reflexivity]. eapply R_set; eauto.
  - unfold rv_take_at.
    assert (Ho : fst (get_any_or_read_at tsize dec s i) = view_at s i) by reflexivity.
    destruct (get_any_or_read_at tsize dec s i) as [o st] eqn:Eg. cbn [fst] in Ho. subst o.
    destruct (Co (add_stale st s) eq_refl) as (HI0 & HR0 & _).
    destruct (N.lt_ge_cases i (rlen s)) as [Hlt|Hge].
    + rewrite (R3 i Hlt). destruct (view_at s i) as [x|] eqn:Ev; cbn [fst snd res_rel]; [|auto].
      destruct (delete_view tsize dec (add_stale st s) i HI0 Hlt) as (HI' & L & St & V).
      split; [exact HI'|]. split; [|reflexivity]. eapply R_set; eauto.
    + assert (Hv : view_at s i = None).
      { rewrite view_at_uopt. destruct (ns_mem i (holes s)); [reflexivity|]. unfold uopt, rlen in *.
        destruct (N.leb_spec (stored_len s) i); [|lia]. apply get_none. lia. }
      rewrite Hv, get_none by (unfold slen in R2; lia). cbn [fst snd res_rel]. auto.
  - unfold rv_fill. rewrite (first_none_is_min tsize dec s a HI HR).
    destruct (ns_min (holes s)) as [h|] eqn:Em.
    + pose proof (Inv_hol s HI _ (ns_min_mem _ _ Em)) as Hh. rewrite update_at_hole_removed by exact Hh.
      destruct (update_at_view tsize dec s h v HI Hh) as (s2 & -> & HI2 & L2 & St2 & V2). cbn [fst snd res_rel].
      split; [exact HI2|]. split; [|reflexivity]. eapply R_set; eauto.
    + destruct (push_refines tsize dec s a v HI HR) as [HI' HR']. unfold rv_push in *. cbn [fst snd res_rel].
      split; [exact HI'|]. split; [exact HR'|]. f_equal. unfold rlen, slen in *. rv_fields. rewrite len_app. change (len [v]) with 1. lia.
  - destruct (commit_ok s st HI) as (s' & -> & St & W). cbn [fst snd res_rel of_unit].
    destruct (sk a =? 0); cbn [fst snd]; apply (Sw s' st); auto.
  - destruct (stamped_write_wrote s st HI) as (s' & -> & St & _ & W). apply (Sw s' st); auto.
Qed.

Lemma run_app (s : rv) h1 h2 : run s (h1 ++ h2) = run (run s h1) h2.
Proof. revert s; induction h1 as [|o t IH]; intros s; cbn [app RvRollback.run]; auto. Qed.
Lemma srun_app (a : sv T) h1 h2 : srun a (h1 ++ h2) = srun (srun a h1) h2.
Proof. revert a; induction h1 as [|o t IH]; intros a; cbn [app srun]; auto. Qed.

Theorem run_refines h : forall (s : rv) a, Inv s -> R s a -> Forall plain_op h ->
  Inv (run s h) /\ R (run s h) (srun a h).
Proof.
  induction h as [|o t IH]; intros s a HI HR Hp; cbn [RvRollback.run srun]; [auto|].
  inversion Hp as [|? ? Ho Ht]; subst.
  destruct (step_refines s a o HI HR Ho) as (HI' & HR' & _). apply IH; auto.
Qed.

(* C03 (raw), all histories, all element types, all retention settings: after EVERY step (the last step
   of every history h1 ++ [o]) the results agree, the view of the concrete state is the reference contents
   (hence same length and same deleted slots), the stamps are equal, and the invariant holds *)
Theorem refines_raw k0 h1 o : Forall plain_op (h1 ++ [o]) ->
  let s := run (rv_init k0) h1 in let a := srun (sv_init k0) h1 in
  res_rel o (snd (step s o)) (snd (sstep a o)) /\
  view tsize dec (fst (step s o)) = contents (fst (sstep a o)) /\
  rlen (fst (step s o)) = slen (fst (sstep a o)) /\
  stamp (fst (step s o)) = sstamp (fst (sstep a o)) /\
  Inv (fst (step s o)).
Proof.
  intros Hp s a. apply Forall_app in Hp as [Hp1 Hp2]. inversion Hp2 as [|? ? Ho _]; subst.
  destruct (run_refines h1 (rv_init k0) (sv_init k0) (Inv_init k0) (R_init tsize dec k0) Hp1) as [HI HR].
  fold s in HI, HR. fold a in HR.
  destruct (step_refines s a o HI HR Ho) as (HI' & HR' & Hres).
  split; [exact Hres|]. split; [symmetry; eapply R_view; eauto|]. destruct HR' as (R1 & R2 & _). auto.
Qed.

(* Inv_no_stale (R3) and write_ok (write() does not fail) then apply to every state a non-rollback history reaches *)
Theorem reachable_Inv k0 h : Forall plain_op h -> Inv (run (rv_init k0) h).
Proof. intros Hp. apply (run_refines h (rv_init k0) (sv_init k0) (Inv_init k0) (R_init tsize dec k0) Hp). Qed.

Lemma R_of_view (s : rv) : R s (mkSv (view tsize dec s) (stamp s) (mkSnap [] 0) [] 0).
Proof.
  unfold RvRefine.R, slen. cbn [contents sstamp]. split; [reflexivity|]. split.
  - unfold view, len. rewrite map_length, seqN_length. lia.
  - intros i Hi. unfold view. rewrite get_map_seqN, N2Nat.id. destruct (i <? rlen s) eqn:E; [now rewrite N.add_0_l|lia].
Qed.

(* C03_reimport: flush + database flush + drop + import returns exactly the flushed contents and stamp *)
Theorem reimport_preserves (s : rv) : Inv s ->
  snd (step s Reimport) = RUnit /\ view tsize dec (fst (step s Reimport)) = view tsize dec s /\
  stamp (fst (step s Reimport)) = stamp s /\ Inv (fst (step s Reimport)).
Proof.
  intros HI. destruct (step_refines s _ Reimport HI (R_of_view s) I) as (HI' & HR' & Hres).
  cbn [sstep fst snd res_rel] in *. split; [exact Hres|]. split.
  - symmetry. apply (R_view tsize dec _ _ HR').
  - destruct HR' as (R1 & _). cbn in R1. auto.
Qed.
End STEP.
