(* Vec/CvInstProofs.v — the executable instance of Vec/CvInst.v (element type `xT w`) satisfies the codec
   hypotheses of CvInv's Inv section; on it the refutation of `C04_comp_chain_full_stmt` (`x_chain_refuted`). *)
From Anydb Require Import Common.Base Common.LE Common.ListFacts Gen.Consts
  Vec.CvRegion Vec.CvPages Vec.CvModel Vec.CvCodec Vec.CvInst.
From Coq Require Import Eqdep_dec.

Lemma x_le_enc_eq w : forall v, x_le_enc w v = le_enc w v.
Proof.
  induction w as [|w IH]; intros v; [reflexivity|].
  cbn [x_le_enc le_enc]. rewrite IH. f_equal.
  - change 255 with (N.ones 8). rewrite N.land_ones. reflexivity.
  - f_equal. rewrite N.shiftr_div_pow2. reflexivity.
Qed.

Lemma x_enc_len w (t : xT w) : len (x_enc w t) = N.of_nat w.
Proof. unfold x_enc. rewrite x_le_enc_eq. apply len_le_enc. Qed.

Lemma mk_x_ok w v (H : x_ok w v = true) : mk_x w v = exist _ v H.
Proof.
  unfold mk_x.
  generalize (eq_refl (x_ok w v)).
  generalize (x_ok w v) at 2 3. intros b. destruct b; intros e.
  - f_equal. apply UIP_dec. apply Bool.bool_dec.
  - congruence.
Qed.

Lemma x_dec_enc w (t : xT w) : x_dec w (x_enc w t) = t.
Proof.
  destruct t as [v H]. unfold x_dec, x_enc, x_val. cbn [proj1_sig].
  rewrite x_le_enc_eq, le_dec_enc.
  - apply mk_x_ok.
  - unfold x_ok in H. now apply N.ltb_lt in H.
Qed.

Lemma len_x_bytes w (l : list (xT w)) : len (x_bytes w l) = len l * N.of_nat w.
Proof. exact (len_values_to_bytes (x_enc_len w) l). Qed.

Lemma x_codec_rt w k (l : list (xT w)) : x_decompress w (x_compress w k l) (len l) = Some l.
Proof.
  unfold x_compress, x_decompress.
  assert (D : decode_vals (xT w) (N.of_nat w) (x_dec w) (N.to_nat (len l)) (x_bytes w l) = l).
  { unfold len. rewrite Nat2N.id, <- (app_nil_r (x_bytes w l)). exact (decode_vals_bytes (x_enc_len w) (x_dec_enc w) l []). }
  destruct ((k =? 0) || (two32 <=? k)).
  - (* no usable hint: the cells are the bytes themselves *)
    replace (match map CB (x_bytes w l) with CX p :: _ => p | _ => map cell_byte (map CB (x_bytes w l)) end)
      with (x_bytes w l) by (rewrite map_cell_byte_CB; now destruct (x_bytes w l)).
    now rewrite len_x_bytes, N.eqb_refl, D.
  - now rewrite len_x_bytes, N.eqb_refl, D.
Qed.

Lemma x_compress_small w k (l : list (xT w)) :
  0 < N.of_nat w ->
  len l <= MAX_UNCOMPRESSED_PAGE_SIZE / N.of_nat w -> len (x_compress w k l) < two32.
Proof.
  intros Hw Hl.
  assert (H : len l * N.of_nat w < two32).
  { assert (MAX_UNCOMPRESSED_PAGE_SIZE = 16384) by reflexivity. unfold two32.
    pose proof (N.mul_div_le MAX_UNCOMPRESSED_PAGE_SIZE (N.of_nat w) ltac:(lia)). nia. }
  unfold x_compress.
  destruct ((k =? 0) || (two32 <=? k)) eqn:E.
  - now rewrite len_map, len_x_bytes.
  - apply orb_false_iff in E as [E1 E2]. apply N.eqb_neq in E1. apply N.leb_gt in E2.
    rewrite len_cons, len_repeat. lia.
Qed.

Example x_hypotheses_satisfiable :
  exists s0, x_import 8 FORMAT_PCO 8 0 [] [] = Ok s0 /\
    s_stored_len (fst (x_step 8 FORMAT_PCO 8 (fst (x_step 8 FORMAT_PCO 8 s0 (Push (x_mk_list 8 [1; 2; 3]))))
                               (Write []))) = 3.
Proof. eexists. split; [reflexivity|]. now vm_compute. Qed.

(* C04, compressed: the chain of rollbacks across a truncating commit is refused (known finding).
   commit [0,1,2,3] @1; push 9, commit @2; truncate to 1, commit @3; rollback (ok: back to 5 values, stamp 2,
   stored_len clamped to 1, four values re-queued); rollback again: the retained record of stamp 2 is refused. *)
Definition x_chain_history : list (x_op 8) :=
  [Push (x_mk_list 8 [0; 1; 2; 3]); StampedWrite 1 []; Push (x_mk_list 8 [9]); StampedWrite 2 [];
   Trunc 1; StampedWrite 3 []; Rollback].

Definition x_run8 (k : N) (h : list (x_op 8)) : option (x_cvs 8) :=
  match x_import 8 FORMAT_LZ4 8 k [] [] with
  | Ok s0 => Some (fold_left (fun s o => fst (x_step 8 FORMAT_LZ4 8 s o)) h s0)
  | _ => None
  end.

(* full statement: whenever the record of the current stamp is retained, rollback() succeeds *)
Definition C04_comp_chain_full_stmt : Prop :=
  forall (h : list (x_op 8)) s,
    x_run8 3 h = Some s ->
    (exists dir bs, s_changes s = Some dir /\ lookup_file dir (cv_stamp s) = Some bs) ->
    snd (x_step 8 FORMAT_LZ4 8 s Rollback) = Ok false.

Definition x_chain_check : bool :=
  match x_run8 3 x_chain_history with
  | Some s =>
      match s_changes s with
      | Some dir =>
          match lookup_file dir (cv_stamp s) with
          | Some _ => match snd (x_step 8 FORMAT_LZ4 8 s Rollback) with Err EIndexTooHigh => true | _ => false end
          | None => false
          end
      | None => false
      end
  | None => false
  end.

Lemma x_chain_check_true : x_chain_check = true.
Proof. vm_compute. reflexivity. Qed.

Lemma x_chain_refuted : ~ C04_comp_chain_full_stmt.
Proof.
  intros H. pose proof x_chain_check_true as C. unfold x_chain_check in C.
  destruct (x_run8 3 x_chain_history) as [s|] eqn:E; [|discriminate].
  destruct (s_changes s) as [dir|] eqn:Ed; [|discriminate].
  destruct (lookup_file dir (cv_stamp s)) as [bs|] eqn:El; [|discriminate].
  specialize (H x_chain_history s E ltac:(eauto)).
  rewrite H in C. discriminate.
Qed.

Example x_chain_first_rollback_exact :
  match x_run8 3 x_chain_history with
  | Some s => match x_collect 8 s with
              | Ok l => (x_vals l, cv_stamp s) = ([0; 1; 2; 3; 9], 2)
              | _ => False
              end
  | None => False
  end.
Proof. vm_compute. reflexivity. Qed.
