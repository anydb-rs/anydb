(* Vec/CvFaultProofs.v — the change-record parser of compressed vectors (CvModel.parse_change = base
   parse_change_data + expect_end) and what cv_undo makes of a record whose length fields were altered (C16 / C17,
   compressed format).  `wb` of Vec/CurTheory.v is shown of the one primitive read of CvModel's consuming cursor
   (`wb_read`) and from it of `parse_cur`; parse_change is `whole parse_cur`, hence the three parser theorems.
   `comp_record_verdict`: for arbitrary prev_stored_len / stamp / stored_len fields, when the record is refused and
   what is applied otherwise; "a record with an altered prev_stored_len is never applied" is refuted
   (`damaged_record_refuted`).
   A field added to the change record is entered in CvModel.parse_change, `parse_cur`, `parse_change_whole` and
   `wb_parse_cur` together (and in CvFault.record_bytes with CvCodec.parse_record). *)
From Anydb Require Import Common.Base Common.LE Common.ListFacts Gen.Consts Codec.Vecdb
  Vec.CvPages Vec.CvModel Vec.CvLists Vec.CvCodec Vec.CvInst Vec.CvFault Vec.CurTheory.

(* the cursor over input b that has consumed k bytes; cursor.rs expect_end: nothing remains *)
Definition rd_on (b : list N) (k : N) : CvModel.cursor := (drop k b, k).
Definition rd_at_end (c : CvModel.cursor) : bool := len (fst c) =? 0.
Lemma rd_at_end_on b k : k <= len b -> rd_at_end (rd_on b k) = (k =? len b).
Proof.
  intros H. unfold rd_at_end, rd_on. cbn [fst]. rewrite len_drop.
  destruct (N.eqb_spec k (len b)), (N.eqb_spec (len b - k) 0); auto; lia.
Qed.
Notation cop := (CurTheory.cop cverr CvModel.cursor).
Notation wb := (CurTheory.wb rd_on).

(* every read of the cursor has this shape: check for n bytes, consume exactly those, compute from them *)
Lemma wb_read {A} n (g : list N -> A) :
  wb (fun c => let! _ := check_remaining c n in Ok (g (take n (fst c)), (drop n (fst c), snd c + n))).
Proof.
  split.
  - intros c. pose proof (check_remaining_np c n). destruct (check_remaining c n) as [[]| |]; cbn [bind]; congruence.
  - intros b k m v c' Hk H. unfold rd_on in *.
    destruct (check_remaining (drop k b, k) n) as [[]| |] eqn:E; cbn [bind fst snd] in H; try discriminate.
    injection H as <- <-. apply check_remaining_ok in E. rewrite len_drop in E.
    exists (k + n). rewrite drop_drop. repeat split; try lia.
    + intros Hm. rewrite check_remaining_intro; [|lia|rewrite len_drop, len_take; lia]. cbn [bind fst snd].
      now rewrite drop_drop, drop_take, take_take by lia.
    + intros Hkm Hm. exists EWrongLength. rewrite drop_take by lia. rewrite check_remaining_short by lia. reflexivity.
Qed.

Lemma wb_bind_skip {B} n (k : cop B) : wb k -> wb (fun c => bind (rd_skip c n) k).
Proof.
  intros Hk. refine (wb_ext _ _ _ (wb_bind _ (fun x => k (snd x)) (wb_read n (fun _ => tt)) (fun _ => Hk))).
  intros c. unfold rd_skip. now destruct (check_remaining c n).
Qed.

Section Parser.
  Variable T : Type.
  Variable size : N.
  Variable dec : list N -> T.

  Notation cursor := CvModel.cursor.
  Notation rd_values := (rd_values T size dec).
  Notation parse_change := (parse_change T size dec).

  Lemma wb_rd_values count : wb (fun c => rd_values c count).
  Proof. exact (wb_if _ _ _ (wb_err EOverflow) (wb_read (size * count) (decode_vals T size dec (N.to_nat count)))). Qed.

  (* parse_change_data without expect_end *)
  Definition parse_cur : cop (change T) := fun c0 =>
    let! (ps, c1) := rd_u64 c0 in
    let! (psl, c2) := rd_u64 c1 in
    let! c3 := rd_skip c2 8 in
    let! (tc, c4) := rd_u64 c3 in
    if psl <? tc then Err EUnderflow else
    let! (tv, c5) := rd_values c4 tc in
    let! (ppl, c6) := rd_u64 c5 in
    let! (pp, c7) := rd_values c6 ppl in
    let! (pl, c8) := rd_u64 c7 in
    if two64 <=? size * pl then Err EOverflow else
    let! c9 := rd_skip c8 (size * pl) in
    Ok (mkChange T ps psl (psl - tc) tv pp, c9).

  Notation whole := (CurTheory.whole rd_on rd_at_end EWrongLength).

  Lemma parse_change_whole bs : parse_change bs = whole parse_cur bs.
  Proof.
    unfold CvModel.parse_change, CurTheory.whole, parse_cur, rd_on. change (drop 0 bs) with bs.
    destruct (rd_u64 (bs, 0)) as [[ps c1]| |]; cbn [bind]; try reflexivity.
    destruct (rd_u64 c1) as [[psl c2]| |]; cbn [bind]; try reflexivity.
    destruct (rd_skip c2 8) as [c3| |]; cbn [bind]; try reflexivity.
    destruct (rd_u64 c3) as [[tc c4]| |]; cbn [bind]; try reflexivity.
    destruct (psl <? tc); try reflexivity.
    destruct (rd_values c4 tc) as [[tv c5]| |]; cbn [bind]; try reflexivity.
    destruct (rd_u64 c5) as [[ppl c6]| |]; cbn [bind]; try reflexivity.
    destruct (rd_values c6 ppl) as [[pp c7]| |]; cbn [bind]; try reflexivity.
    destruct (rd_u64 c7) as [[pl c8]| |]; cbn [bind]; try reflexivity.
    destruct (two64 <=? size * pl); try reflexivity.
    destruct (rd_skip c8 (size * pl)) as [c9| |]; cbn [bind fst snd]; try reflexivity.
    unfold rd_at_end. now destruct (len (fst c9) =? 0).
  Qed.

  Lemma wb_parse_cur : wb parse_cur.
  Proof.
    pose proof (wb_read 8 le_dec : wb rd_u64) as Hu. unfold parse_cur.
    apply (wb_bind rd_u64); [exact Hu|intros ps].
    apply (wb_bind rd_u64); [exact Hu|intros psl].
    apply wb_bind_skip.
    apply (wb_bind rd_u64); [exact Hu|intros tc].
    apply wb_if; [apply wb_err|].
    apply (wb_bind (fun c => rd_values c tc)); [apply wb_rd_values|intros tv].
    apply (wb_bind rd_u64); [exact Hu|intros ppl].
    apply (wb_bind (fun c => rd_values c ppl)); [apply wb_rd_values|intros pp].
    apply (wb_bind rd_u64); [exact Hu|intros pl].
    apply wb_if; [apply wb_err|].
    apply wb_bind_skip. apply wb_ret.
  Qed.

  Theorem comp_parse_never_panics bs : parse_change bs <> Panic.
  Proof. rewrite parse_change_whole. exact (whole_np wb_parse_cur bs). Qed.

  Theorem comp_accepted_prefix_rejected bs ch m :
    parse_change bs = Ok ch -> m < len bs -> exists e, parse_change (take m bs) = Err e.
  Proof. rewrite !parse_change_whole. exact (whole_prefix_rejected rd_at_end_on wb_parse_cur bs ch m). Qed.

  Theorem comp_trailing_bytes_rejected bs ch extra :
    parse_change bs = Ok ch -> extra <> [] -> exists e, parse_change (bs ++ extra) = Err e.
  Proof. rewrite !parse_change_whole. exact (whole_trailing_rejected rd_at_end_on wb_parse_cur bs ch extra). Qed.
End Parser.

Section Verdict.
  Variable T : Type.
  Variable size : N.
  Variable enc : T -> list N.
  Variable dec : list N -> T.
  Hypothesis size_pos : 0 < size.
  Hypothesis enc_len : forall t, len (enc t) = size.
  Hypothesis dec_enc : forall t, dec (enc t) = t.

  Notation values_to_bytes := (values_to_bytes T enc).
  Notation rd_values := (rd_values T size dec).
  Notation parse_change := (parse_change T size dec).
  Notation cv_undo := (cv_undo T size dec).
  Notation record_bytes := (record_bytes T enc).

  Lemma comp_parse_record stamp psl sl tv pp pu :
    stamp < two64 -> psl < two64 -> sl < two64 ->
    48 + size * len tv + size * len pp + size * len pu < two64 ->
    parse_change (record_bytes stamp psl sl tv pp pu) =
      if psl <? len tv then Err EUnderflow
      else Ok (mkChange T stamp psl (psl - len tv) tv pp).
  Proof using dec_enc enc_len size_pos. exact (parse_record T size enc enc_len dec dec_enc size_pos stamp psl sl tv pp pu). Qed.

  Notation applied := (undo_applied T size).

  (* rollback's deserialize_then_undo_changes on a record with ANY value in the stamp, prev_stored_len and stored_len
     fields (and any value blocks): a refusal leaves the state unchanged; the stamp and stored_len fields never
     cause one *)
  Theorem comp_record_verdict (s : cvs T) stamp psl sl tv pp pu :
    stamp < two64 -> psl < two64 -> sl < two64 ->
    48 + size * len tv + size * len pp + size * len pu < two64 ->
    cv_undo s (record_bytes stamp psl sl tv pp pu) =
      if psl <? len tv then (s, Err EUnderflow)
      else if s_stored_len s <? psl - len tv then (s, Err EIndexTooHigh)
      else (applied s stamp psl tv pp, Ok tt).
  Proof using dec_enc enc_len size_pos.
    intros Ha Hb Hc Hfit. unfold CvModel.cv_undo. rewrite comp_parse_record by assumption.
    destruct (psl <? len tv); [reflexivity|].
    cbn [ch_truncated_start ch_truncated_values ch_prev_stored_len ch_prev_pushed ch_prev_stamp].
    destruct (s_stored_len s <? psl - len tv); [reflexivity|].
    unfold undo_applied. destruct tv; reflexivity.
  Qed.

  (* the case the property names: the record of an append-only commit, prev_stored_len overwritten with a value
     above the vector's stored length; this check is the only validation of that field *)
  Corollary comp_append_only_psl_refused (s : cvs T) stamp psl' sl pp pu :
    stamp < two64 -> psl' < two64 -> sl < two64 ->
    48 + size * len pp + size * len pu < two64 ->
    s_stored_len s < psl' ->
    cv_undo s (record_bytes stamp psl' sl [] pp pu) = (s, Err EIndexTooHigh).
  Proof using dec_enc enc_len size_pos.
    intros Ha Hb Hc Hfit Hs. rewrite comp_record_verdict; try assumption; [|rewrite len_nil; lia].
    rewrite len_nil. destruct (N.ltb_spec psl' 0); [lia|].
    destruct (N.ltb_spec (s_stored_len s) (psl' - 0)); [reflexivity|lia].
  Qed.

  (* … and is applied as soon as the altered value stays at or below it: no checksum *)
  Corollary comp_append_only_psl_accepted (s : cvs T) stamp psl' sl pp pu :
    stamp < two64 -> psl' < two64 -> sl < two64 ->
    48 + size * len pp + size * len pu < two64 ->
    psl' <= s_stored_len s ->
    cv_undo s (record_bytes stamp psl' sl [] pp pu) = (applied s stamp psl' [] pp, Ok tt) /\
    s_stored_len (applied s stamp psl' [] pp) = psl'.
  Proof using dec_enc enc_len size_pos.
    intros Ha Hb Hc Hfit Hs. rewrite comp_record_verdict; try assumption; [|rewrite len_nil; lia].
    rewrite len_nil. destruct (N.ltb_spec psl' 0); [lia|].
    destruct (N.ltb_spec (s_stored_len s) (psl' - 0)); [lia|]. split; [reflexivity|].
    unfold undo_applied, update_stamp. destruct (_ =? _); reflexivity.
  Qed.

  Lemma lookup_dir_fault dir st g b b' :
    lookup_file dir st = Some b -> g b = Some b' -> lookup_file (dir_fault dir st g) st = Some b'.
  Proof.
    induction dir as [|[k x] t IH]; cbn [lookup_file dir_fault]; [discriminate|].
    intros H Hg. destruct (k =? st) eqn:E.
    - injection H as ->. rewrite Hg. cbn [lookup_file]. now rewrite E.
    - cbn [lookup_file]. rewrite E. auto.
  Qed.

  (* FOverwrite at byte offset 8 replaces exactly the prev_stored_len field *)
  Lemma overwrite_psl stamp psl sl tv pp pu st v :
    fault_bytes (FOverwrite st 8 v) (record_bytes stamp psl sl tv pp pu) = Some (record_bytes stamp v sl tv pp pu).
  Proof.
    unfold fault_bytes, CvFault.record_bytes.
    set (R := u64b sl ++ _).
    assert (L : (len (u64b stamp ++ u64b psl ++ R) <? 8 + 8) = false).
    { apply N.ltb_ge. rewrite !len_app, !len_u64b. lia. }
    rewrite L. reflexivity.   (* u64b computes to eight cells: take / drop reduce on them *)
  Qed.

  (* the fault case the property names, end to end on the model *)
  Theorem comp_rollback_overwritten_psl_refused (s : cvs T) dir stamp psl sl pp pu v :
    s_changes s = Some dir ->
    lookup_file dir (cv_stamp s) = Some (record_bytes stamp psl sl [] pp pu) ->
    stamp < two64 -> v < two64 -> sl < two64 -> 48 + size * len pp + size * len pu < two64 ->
    s_stored_len s < v ->
    let s' := cv_fault s (FOverwrite (cv_stamp s) 8 v) in
    cv_rollback T size dec s' = (s', Err EIndexTooHigh).
  Proof using dec_enc enc_len size_pos.
    intros Hd Hl Ha Hv Hc Hfit Hs s'.
    assert (Ech : s_changes s' = Some (dir_fault dir (cv_stamp s) (fault_bytes (FOverwrite (cv_stamp s) 8 v)))).
    { unfold s', cv_fault. rewrite Hd. reflexivity. }
    assert (Est : cv_stamp s' = cv_stamp s) by (unfold s', cv_fault; rewrite Hd; reflexivity).
    assert (Esl : s_stored_len s' = s_stored_len s) by (unfold s', cv_fault; rewrite Hd; reflexivity).
    unfold CvModel.cv_rollback. rewrite Ech, Est.
    rewrite (lookup_dir_fault _ _ _ _ _ Hl (overwrite_psl stamp psl sl [] pp pu (cv_stamp s) v)).
    rewrite comp_append_only_psl_refused; try assumption; [reflexivity|rewrite Esl; assumption].
  Qed.
End Verdict.

(* the full statement is false.  A witness: u64 elements; a state with stored length 2 and neither data nor
   pages (the statement quantifies over every state); the record of an append-only commit made from
   stored length 2 (prev_stored_len = 2); the field overwritten with 1: applied, stored length 1 *)
Definition wit_state : x_cvs 8 :=
  mkCvs (mkHeader HEADER_VERSION 0 0 2 FORMAT_LZ4) false [] (mkPages [] None []) 2 [] [] 2 1 None.

Theorem damaged_record_refuted :
  ~ C16_comp_damaged_refused_full (xT 8) 8 (x_enc 8) (x_dec 8).
Proof.
  intros H. destruct (H wit_state 1 2 1 2 [] [] [] ltac:(discriminate) ltac:(reflexivity)) as [e He].
  vm_compute in He. discriminate.
Qed.

Theorem damaged_record_applied_witness :
  let r := cv_undo (xT 8) 8 (x_dec 8) wit_state (record_bytes (xT 8) (x_enc 8) 1 1 2 [] [] []) in
  snd r = Ok tt /\ s_stored_len (fst r) = 1 /\ cv_stamp (fst r) = 1.
Proof. vm_compute. repeat split. Qed.
