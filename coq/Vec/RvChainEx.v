(* The one premise of RvChain.strict that is not about the shape of the history, valid_record of the record built
   at each commit, holds at the commits of two concrete histories over u64 elements; both are `disciplined`
   (RvFindings) and model and reference agree on them step by step.  ex_hist ends in three rollbacks, the last
   refused; in ex_len a rollback LENGTHENS the vector (it undoes a truncating commit) and edits follow. *)
From Anydb Require Import Common.Base Vec.RvChange Vec.RvChangeProofs
  Vec.RvModel Vec.RvRollback Vec.RvInst Vec.RvFindings.

Definition ex_h1 : list w_op := [Push 5; Push 6; Push 4; Delete 0].
Definition ex_h2 : list w_op := ex_h1 ++ [Commit 1; Update 0 9; Push 7; Update 1 8].
Definition ex_hist : list w_op := ex_h2 ++ [Commit 2; Rollback; Rollback; Rollback].

(* valid_record is decidable once the encoder is concrete *)
Definition valid_recordb {T} (enc : T -> list N) (r : @crecord T) : bool :=
  (r_stamp r <? two64) && (r_prev_stored_len r <? two64) && (r_stored_len r <? two64) &&
  (len (r_trunc r) <=? r_prev_stored_len r) && (len (r_mod_idx r) =? len (r_mod_vals r)) &&
  forallb (fun i => i <? two64) (r_mod_idx r) && forallb (fun i => i <? two64) (r_prev_holes r) &&
  (len (serialize_record enc r) <? two64).
Lemma valid_recordb_ok {T} (enc : T -> list N) r : valid_recordb enc r = true -> valid_record enc r.
Proof.
  unfold valid_recordb, valid_record. rewrite !andb_true_iff, !forallb_forall, !N.ltb_lt, N.leb_le, N.eqb_eq.
  setoid_rewrite N.ltb_lt. tauto.
Qed.

Example ex_valid1 : valid_record (w_enc 8) (fst (build_record (w_size 8) w_dec (u64_run (w_init 3) ex_h1))).
Proof. apply valid_recordb_ok. vm_compute. reflexivity. Qed.
Example ex_valid2 : valid_record (w_enc 8) (fst (build_record (w_size 8) w_dec (u64_run (w_init 3) ex_h2))).
Proof. apply valid_recordb_ok. vm_compute. reflexivity. Qed.
Example ex_agrees : disciplined 3 ex_hist = true /\ agree 3 ex_hist = true.
Proof. vm_compute. auto. Qed.

Definition ex_l1 : list w_op := pushes 10.
Definition ex_l2 : list w_op := ex_l1 ++ [Commit 1; Truncate 5].
Definition ex_l3 : list w_op := ex_l2 ++ [Commit 2; Rollback; Delete 6; Push 7; Update 8 1].
Definition ex_len : list w_op := ex_l3 ++ [Commit 2; Rollback; Rollback].
Example ex_len_valid1 : valid_record (w_enc 8) (fst (build_record (w_size 8) w_dec (u64_run (w_init 3) ex_l1))).
Proof. apply valid_recordb_ok. vm_compute. reflexivity. Qed.
Example ex_len_valid2 : valid_record (w_enc 8) (fst (build_record (w_size 8) w_dec (u64_run (w_init 3) ex_l2))).
Proof. apply valid_recordb_ok. vm_compute. reflexivity. Qed.
Example ex_len_valid3 : valid_record (w_enc 8) (fst (build_record (w_size 8) w_dec (u64_run (w_init 3) ex_l3))).
Proof. apply valid_recordb_ok. vm_compute. reflexivity. Qed.
Example ex_len_agrees :
  disciplined 3 ex_len = true /\ Class_rollback_of_truncation 3 ex_len = true /\ agree 3 ex_len = true /\
  real_stored_len (u64_run (w_init 3) (ex_l2 ++ [Commit 2; Rollback])) <? stored_len (u64_run (w_init 3) (ex_l2 ++ [Commit 2; Rollback])) = true.
Proof. vm_compute. auto. Qed.
