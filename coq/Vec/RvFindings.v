(* Executable agreement checker `agree` between the raw-vector model and the reference vector (u64 elements), the
   decidable history classes, and witness histories (`wit3`, `wit4`, `fixed7` carry the numbers of the table in
   DESIGN.md 6.1).  No history class is excluded for raw vectors. *)
From Anydb Require Import Common.Base Vec.RvModel
  Vec.RvRollback Vec.RvSpec Vec.RvInst.

Definition optN_eqb (a b : option N) : bool :=
  match a, b with Some x, Some y => x =? y | None, None => true | _, _ => false end.
Fixpoint list_eqb {A} (e : A -> A -> bool) (a b : list A) : bool :=
  match a, b with
  | [], [] => true
  | x :: s, y :: t => e x y && list_eqb e s t
  | _, _ => false
  end.

(* results as the caller sees them; write()'s boolean is not part of the reference; the error KIND
   of a refused rollback is not part of it either *)
Definition res_agree (a : w_sv) (o : w_op) (m s : @ores N) : bool :=
  match m, s with
  | RPanic, _ => false
  | RBool _, RBool _ => true
  | RUnit, RUnit => true
  | RIdx a, RIdx b => a =? b
  | RVal a, RVal b => optN_eqb a b
  | RStamp a, RStamp b => a =? b
  | RErr _, RErr _ => true
  (* rollback_before with nothing to roll back (no retained commit): the code reports the missing
     directory as an error, the reference returns the current stamp; the state is compared *)
  | RErr _, RStamp _ => match o, committed a with RollbackBefore _, [] => true | _, _ => false end
  | _, _ => false
  end.

Definition state_agree (s : w_rv) (a : w_sv) : bool :=
  list_eqb optN_eqb (u64_view s) (contents a) && (stamp s =? sstamp a).

Fixpoint agree_from (s : w_rv) (a : w_sv) (h : list w_op) : bool :=
  match h with
  | [] => true
  | o :: t =>
    let '(s', r) := u64_step s o in
    let '(a', r') := w_sstep a o in
    res_agree a o r r' && state_agree s' a' && agree_from s' a' t
  end.
Definition agree (k0 : N) (h : list w_op) : bool := agree_from (w_init k0) (w_sinit k0) h.

(* History classes, decided on the reference run.  No lemma relates this executable class to RvChain.strict, the
   class of the unbounded theorems, which also asks valid_record at every commit (see the head of RvChainEx).
   The histories C04/C16 quantify over: edits between commits; plain write()/flush()/re-import only
   when nothing changed since the last commit (or retention is off); increasing stamps; rollbacks
   start from a committed state; no reset_unsaved; no damaged records *)
Definition is_edit (o : w_op) : bool :=
  match o with Push _ | Truncate _ | Update _ _ | Delete _ | Take _ | Fill _ => true | _ => false end.
(* [edited]: an edit operation was issued since the last commit / rollback / reset / import (syntactic:
   a slot deleted again after a change is still an edit, because write() would store the change) *)
Definition op_disciplined (edited : bool) (a : w_sv) (o : w_op) : bool :=
  match o with
  | Write | Flush | Reimport => (sk a =? 0) || negb edited
  | StampedWrite _ => sk a =? 0
  | Commit st => sstamp a <? st
  | Rollback | RollbackBefore _ => negb edited
  | ResetUnsaved | FDelete _ | FTruncate _ _ | FOverwrite _ _ _ => false
  | _ => true
  end.
Definition next_edited (edited : bool) (o : w_op) : bool :=
  match o with
  | Commit _ | Rollback | RollbackBefore _ | Reset => false
  | _ => edited || is_edit o
  end.
Fixpoint disciplined_from (edited : bool) (a : w_sv) (h : list w_op) : bool :=
  match h with
  | [] => true
  | o :: t => op_disciplined edited a o && disciplined_from (next_edited edited o) (fst (w_sstep a o)) t
  end.
Definition disciplined (k0 : N) (h : list w_op) : bool := disciplined_from false (w_sinit k0) h.

(* a rollback that makes the vector LONGER (it undoes a truncating commit) and so leaves stored_len above the
   on-disk length.  No statement excludes the class; the witnesses below show that disciplined histories include it. *)
Fixpoint kc_rollback_grows_from (a : w_sv) (h : list w_op) : bool :=
  match h with
  | [] => false
  | o :: t =>
    let a' := fst (w_sstep a o) in
    (match o with Rollback | RollbackBefore _ => slen a <? slen a' | _ => false end) || kc_rollback_grows_from a' t
  end.
Definition Class_rollback_of_truncation (k0 : N) (h : list w_op) : bool := kc_rollback_grows_from (w_sinit k0) h.

Definition pushes (n : nat) : list w_op := map (fun i => Push (i + 100)) (seqN 0 n).

(* 3: 10 values, commit(1); truncate to 5, commit(2); rollback; push; write() (here inside a commit) *)
Definition wit3 : list w_op := pushes 10 ++ [Commit 1; Truncate 5; Commit 2; Rollback; Push 7; Commit 2].
(* 4: same; rollback; delete_at(6); write() *)
Definition wit4 : list w_op := pushes 10 ++ [Commit 1; Truncate 5; Commit 2; Rollback; Delete 6; Commit 2].

(* the LAST restored slot deleted before the commit: write() must extend the region over a slot that has no value *)
Definition wit_last : list w_op := pushes 27 ++ [Commit 1; Truncate 25; Commit 2; Rollback; Delete 26; Commit 2].
(* both at once, then two more rollbacks: back over the re-made commit and over the first one *)
Definition wit34 : list w_op :=
  pushes 10 ++ [Commit 1; Truncate 5; Commit 2; Rollback; Delete 6; Push 7; Update 8 1; Commit 2; Rollback; Rollback].

Lemma wit34_agree :
  (disciplined 3 wit3 = true /\ Class_rollback_of_truncation 3 wit3 = true /\ agree 3 wit3 = true) /\
  (disciplined 3 wit4 = true /\ Class_rollback_of_truncation 3 wit4 = true /\ agree 3 wit4 = true) /\
  (disciplined 3 wit_last = true /\ Class_rollback_of_truncation 3 wit_last = true /\ agree 3 wit_last = true) /\
  (disciplined 3 wit34 = true /\ Class_rollback_of_truncation 3 wit34 = true /\ agree 3 wit34 = true).
Proof. vm_compute. auto 20. Qed.
Definition settled (s : w_rv) : bool :=
  (stored_len s =? real_stored_len s) && (len (pushed s) =? 0) && (len (updated s) =? 0).
Lemma wit34_settled :
  settled (u64_run (w_init 3) wit3) = true /\ settled (u64_run (w_init 3) wit4) = true /\
  settled (u64_run (w_init 3) wit_last) = true /\ stored_len (u64_run (w_init 3) wit_last) = 27.
Proof. vm_compute. auto. Qed.

(* 7: update of a deleted buffered slot (DESIGN.md 6.1); A: `c:1 rb c:1 rb`, a single rollback must re-base the baseline
   (6.3); B1, B2: rollback_before over a directory that still holds the record of a rolled-back commit (6.3); C: an
   update of a restored slot between the rollback of a truncating commit and the commit made again *)
Definition fixed7 : list w_op := [Push 1; Delete 0; Update 0 2].
Definition fixedA : list w_op := pushes 4 ++ [Commit 1; Rollback; Commit 1; Rollback].
Definition fixedB1 : list w_op := [Commit 1; RollbackBefore 1; Commit 5; RollbackBefore 0].
Definition fixedB2 : list w_op := [Push 1; Commit 1; Push 2; Commit 2; RollbackBefore 2; Push 3; Commit 3; Rollback; Rollback].
Definition fixedC : list w_op :=
  pushes 2 ++ [Commit 1; Push 5; Push 6; Push 7; Commit 2; Truncate 1; Commit 3; Rollback; Update 4 9; Commit 3; Rollback].
(* chained rollback across a truncating commit: undo_changes' validation (rollback.rs:96-113) must let it pass *)
Definition chain_trunc : list w_op :=
  pushes 3 ++ [Commit 1; Push 7; Push 8; Commit 2; Truncate 1; Commit 3; Rollback; Rollback; Rollback].
Lemma repaired_agree :
  agree 3 fixed7 = true /\ agree 3 fixedA = true /\ agree 3 fixedB1 = true /\ agree 2 fixedB2 = true /\
  agree 3 fixedC = true /\ agree 5 chain_trunc = true.
Proof. vm_compute. auto 10. Qed.

Fixpoint all_hist (alpha : list w_op) (n : nat) : list (list w_op) :=
  match n with
  | O => [[]]
  | S m => [] :: flat_map (fun h => map (fun o => o :: h) alpha) (all_hist alpha m)
  end.
Definition alpha_c03 : list w_op :=
  [Push 7; Truncate 0; Truncate 1; Write; Reimport; Reset; Update 0 9; Update 1 9; Delete 0; Delete 1; Take 0; Fill 5].
Definition alpha_c04 : list w_op :=
  [Push 7; Truncate 1; Update 0 9; Delete 0; Commit 1; Commit 2; Commit 3; Rollback; RollbackBefore 1; RollbackBefore 2; Reimport].
