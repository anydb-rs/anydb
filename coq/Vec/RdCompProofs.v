(* Vec/RdCompProofs.v — the compressed vector's read paths.  The codec hypothesis (C07: a page decodes
   to the values that were compressed into it) is built into the state description: pg_vals IS what
   the page decodes to.  C20 is judged against the page entries: every fetch is the byte range of one page
   or, in the io source, of a run of consecutive pages, which `cwf` places inside the region.
   `cgood` (result for C08, fetched ranges for C20) holds for all well-formed states and all from/to of the paths
   that read one page at a time (`pages_into_good`; `walk_good`, the page walk of both fold sources); the io fold
   source and what chooses between the two sources need `io_sized` (every page fits the IO buffer). *)
From Anydb Require Import Common.Base Common.ListFacts Gen.Consts Vec.RdModel Vec.RdCursor Vec.RdComp Vec.RdProofs
  Vec.RdCursorProofs.

Definition cwf (c : cstate) : Prop := cwf_b c = true.
Definition in_cregion (c : cstate) (a : acc) : Prop := fst a + snd a <= c_rlen c.
Definition cgood (c : cstate) := goodP (in_cregion c).
Definition G (c : cstate) (k : N) : list N := opt_list (cview c k).

Lemma cexpected_eq c from to : cexpected c from to = range (G c) (N.min from (clen c)) (N.min to (clen c)).
Proof. reflexivity. Qed.

Lemma cpushed_slice_tail c f t :
  cpushed_slice c f t = if c_stored c <? t then tail_part (c_stored c) (c_pushed c) true f t else [].
Proof. reflexivity. Qed.
Lemma cfold_pushed_tail strict c f t :
  cfold_pushed strict c f t
  = if t <=? N.max f (c_stored c) then [] else tail_part (c_stored c) (c_pushed c) strict f t.
Proof. reflexivity. Qed.

Lemma pages_ok_at pp rl : forall ps pidx t, pages_ok pp rl ps = true -> t <= total_vals ps -> pidx * pp < t ->
  exists p, get ps pidx = Some p /\ pg_start p + pg_bytes p <= rl
    /\ len (pg_vals p) <= pp /\ (len (pg_vals p) = pp \/ t <= pidx * pp + len (pg_vals p)).
Proof.
  induction ps as [|q ps IH]; intros pidx t H Ht Hlt; [cbn in Ht; lia|].
  cbn [pages_ok] in H. apply andb_prop in H as [H H3]. apply andb_prop in H as [H1 H2].
  cbn [total_vals fold_right] in Ht. fold (total_vals ps) in Ht.
  assert (Hq : len (pg_vals q) <= pp /\ (len (pg_vals q) = pp \/ total_vals ps = 0))
    by (destruct ps; [cbn; lia|apply andb_prop in H2 as [H2 _]; lia]).
  destruct (N.eq_dec pidx 0) as [->|Hi]; [exists q; split; [reflexivity|lia]|].
  assert (exists j, pidx = j + 1) as [j ->] by (exists (pidx - 1); lia).
  rewrite get_cons. replace (j + 1 =? 0) with false by lia. rewrite N.add_sub.
  destruct (IH j (t - pp) H3) as (p & Hg & Hr & Hm); [lia|lia|]. exists p. split; [exact Hg|split; [exact Hr|lia]].
Qed.

(* refill_buffer takes pages while they fit; pages follow one another, so a refill that starts with
   page p ends where its last page ends, inside the region *)
Lemma refill_total_ge : forall l acc, acc <= refill_total l acc.
Proof.
  induction l as [|p l IH]; intros acc; cbn [refill_total]; [lia|].
  destruct (BUFFER_SIZE <? acc + pg_bytes p); [lia|]. specialize (IH (acc + pg_bytes p)). lia.
Qed.
Lemma refill_total_le pp rl : forall r p n acc, pages_ok pp rl (p :: r) = true ->
  pg_start p + refill_total (firstn n (p :: r)) acc <= rl + acc.
Proof.
  induction r as [|q r IH]; intros p n acc H; cbn [pages_ok] in H;
    apply andb_prop in H as [H H3]; apply andb_prop in H as [H1 H2];
    (destruct n as [|n]; cbn [firstn refill_total]; [lia|]);
    (destruct (BUFFER_SIZE <? acc + pg_bytes p); [lia|]).
  - rewrite firstn_nil. cbn [refill_total]. lia.
  - apply andb_prop in H2 as [_ H2]. specialize (IH q n (acc + pg_bytes p) H3). lia.
Qed.
Lemma pages_ok_skipn pp rl : forall n l, pages_ok pp rl l = true -> pages_ok pp rl (skipn n l) = true.
Proof.
  induction n; intros l H; [exact H|]. destruct l; [exact H|]. cbn [skipn]. apply IHn.
  cbn [pages_ok] in H. apply andb_prop in H as [_ H]. exact H.
Qed.

Section Pages.
  Variable c : cstate.
  Hypothesis W : cwf c.
  Let pp := per_page c.
  Let ps := c_pages c.

  Lemma cwf_parts : 1 <= pp /\ pages_ok pp (c_rlen c) ps = true /\ c_stored c <= total_vals ps.
  Proof.
    unfold cwf, cwf_b in W. apply andb_prop in W as [H H4]. apply andb_prop in H as [H H3].
    apply andb_prop in H as [H1 H2]. subst pp ps. unfold per_page.
    split; [apply N.div_le_lower_bound; lia|split; [exact H3|lia]].
  Qed.
  Lemma stored_pages : c_stored c <= len ps * pp.
  Proof.
    destruct cwf_parts as (_ & H & Hs). destruct (N.le_gt_cases (c_stored c) (len ps * pp)) as [|Hlt]; [auto|].
    destruct (pages_ok_at _ _ _ (len ps) _ H Hs Hlt) as (p & Hg & _). rewrite get_none in Hg by lia. discriminate.
  Qed.

  Lemma page_view pidx p k : get ps pidx = Some p -> k < pp -> pidx * pp + k < c_stored c ->
    cview c (pidx * pp + k) = get (pg_vals p) k.
  Proof.
    intros Hg Hk Hs. unfold cview. replace (pidx * pp + k <? c_stored c) with true by lia. fold pp ps.
    rewrite !nth_n_get, N.div_add_l, N.div_small, N.add_0_r, Hg by lia.
    now rewrite nth_n_get, N.add_comm, N.mod_add, N.mod_small by lia.
  Qed.

  (* the page pidx (which starts at index pst) and the part of it that a request [f, t) takes *)
  Lemma page_slice_good pidx pst f t : pst = pidx * pp -> f < t -> t <= c_stored c -> pst < t -> f < pst + pp ->
    exists p, get ps pidx = Some p /\ pg_start p + pg_bytes p <= c_rlen c /\
      let pe := N.min (t - pst) (len (pg_vals p)) in
      f - pst <= pe /\ pst + pe = N.min t (pst + pp)
      /\ cgood c (map Yield (slice (f - pst) pe (pg_vals p))) (range (G c) (N.max f pst) (pst + pe)).
  Proof.
    intros -> Hft Ht Hlt Hf. destruct cwf_parts as (_ & Hok & Hst).
    destruct (pages_ok_at _ _ _ pidx t Hok) as (p & Hg & Hreg & Hfull); [lia|exact Hlt|].
    exists p. split; [exact Hg|split; [exact Hreg|]]. intros pe.
    assert (Hpe : pidx * pp + pe = N.min t (pidx * pp + pp)) by lia. split; [lia|split; [exact Hpe|]].
    replace (N.max f (pidx * pp)) with (pidx * pp + (f - pidx * pp)) by lia.
    rewrite <- (slice_range (pg_vals p)); [apply goodP_yields|].
    intros k _ Hk. unfold G. now rewrite (page_view pidx p k Hg) by lia.
  Qed.

  (* read_stored_pages_into: the pages from pidx up to the last one, ep, that the request touches.  They
     yield what is left of the request from the start of page pidx on: [max f (pidx * pp), t), empty once
     that start has passed t *)
  Lemma pages_into_good f t ep : f < t -> t <= c_stored c -> ep * pp < t -> t <= ep * pp + pp ->
    forall m pidx, f < pidx * pp + pp -> pidx + N.of_nat m = ep + 1 ->
    cgood c (pages_into c f t pidx (map (fun i => nth_n ps i) (seqN pidx m))) (range (G c) (N.min t (N.max f (pidx * pp))) t).
  Proof.
    intros Hft Ht Hep1 Hep2. destruct cwf_parts as (Hpp & _).
    induction m as [|m IH]; intros pidx Hf Hm.
    - replace pidx with (ep + 1) by lia. rewrite range_nil by lia. apply goodP_nil.
    - cbn [seqN map pages_into]. rewrite nth_n_get.
      assert (Hlt : pidx * pp < t) by (pose proof (N.mul_le_mono_r pidx ep pp); lia).
      destruct (page_slice_good pidx _ f t eq_refl) as (p & Hg & Hin & Hle & Hpe & Hbody); [lia..|].
      fold ps. rewrite Hg. fold pp.
      set (pst := pidx * pp) in *. set (pe := N.min (t - pst) (len (pg_vals p))) in *. clearbody pe.
      rewrite app_comm_cons. apply (goodP_split _ (pst + pe)); [lia|lia| |].
      + replace (N.min t (N.max f pst)) with (N.max f pst) by lia.
        apply goodP_fetch; [exact Hin|].
        (* a compressed page read from its start is decoded straight into the buffer and truncated *)
        destruct (negb (pg_raw p) && (f - pst =? 0)) eqn:Hfast.
        * apply andb_prop in Hfast as [_ Hz]. replace (f - pst) with 0 in Hbody by lia.
          unfold slice, drop in Hbody. cbn [N.to_nat skipn] in Hbody. now rewrite N.sub_0_r in Hbody.
        * replace (pe <? f - pst) with false by lia. exact Hbody.
      + replace (pst + pe) with (N.min t (N.max f ((pidx + 1) * pp))) by lia. apply IH; lia.
  Qed.
  Theorem read_stored_pages_into_good f t : f < t -> t <= c_stored c ->
    cgood c (read_stored_pages_into c f t) (flat_map (G c) (seqN f (N.to_nat (t - f)))).
  Proof.
    intros Hft Ht. rewrite range_eq. destruct cwf_parts as (Hpp & _). unfold read_stored_pages_into, page_opts. fold pp ps.
    destruct (div_floor f pp) as (sp & -> & Hf1 & Hf2); [lia|].
    destruct (div_floor (t - 1) pp) as (ep & -> & Ht1 & Ht2); [lia|].
    assert (sp < ep + 1) by (apply (N.mul_lt_mono_pos_r pp); lia).
    replace f with (N.min t (N.max f (sp * pp))) at 2 by lia. apply (pages_into_good f t ep); lia.
  Qed.

  Lemma cview_pushed k : c_stored c <= k -> G c k = opt_list (get (c_pushed c) (k - c_stored c)).
  Proof. intros. unfold G, cview. replace (k <? c_stored c) with false by lia. now rewrite nth_n_get. Qed.

  Theorem cread_into_at_good from to : cgood c (cread_into_at c from to) (cexpected c from to).
  Proof.
    rewrite cexpected_eq. unfold cread_into_at.
    set (f := N.min from (clen c)). set (t := N.min to (clen c)).
    apply goodP_clamp. intros Hlt. rewrite cpushed_slice_tail.
    apply (read_shape_good _ (G c) (c_stored c) (c_pushed c) cview_pushed); [lia|apply N.le_min_r|].
    intros Hs. apply read_stored_pages_into_good; lia.
  Qed.
  Theorem cro_read_into_good from to :
    cgood c (cro_read_into c from to)
      (flat_map (G c) (seqN (N.min from (c_stored c))
                            (N.to_nat (N.min to (c_stored c) - N.min from (c_stored c))))).
  Proof. rewrite range_eq. apply goodP_clamp. intros Hlt. apply read_stored_pages_into_good; lia. Qed.

  (* Both fold sources walk the pages alike: at position pos inside page pidx (which starts at pst)
     they fetch something, hand over the part of the page from pos up to the request's end and go on
     at the start of the next page.  L is such a loop with its own state x.  A source enters it at the
     request's start f with more fuel than there are pages; inside, `fuel` pages more reach the end t. *)
  Lemma walk_good (X : Type) (L : nat -> X -> N -> N -> N -> N -> stream) (f t : N) :
    f <= t -> t <= c_stored c ->
    (forall fuel x pos pidx pst off, t <= pos -> L fuel x pos pidx pst off = []) ->
    (forall fuel x pos pidx pst p, get ps pidx = Some p -> pst = pidx * pp -> pos < t -> pst <= pos ->
       let pe := N.min (t - pst) (len (pg_vals p)) in
       pos - pst <= pe -> pg_start p + pg_bytes p <= c_rlen c ->
       exists pre x', cgood c pre []
         /\ L (S fuel) x pos pidx pst (pos - pst)
            = pre ++ map Yield (slice (pos - pst) pe (pg_vals p)) ++ L fuel x' (pst + pe) (pidx + 1) (pst + pp) 0) ->
    forall x, cgood c (L (S (length ps)) x f (f / pp) (f / pp * pp) (f - f / pp * pp)) (range (G c) f t).
  Proof.
    intros Hft Ht L_end L_step x0. destruct cwf_parts as (Hpp & _).
    enough (Hwalk : forall fuel x pos pidx pst off, pst = pidx * pp -> off = pos - pst -> pos <= t ->
              (pos < t -> pst <= pos /\ pos < pst + pp) -> t <= pst + N.of_nat fuel * pp ->
              cgood c (L fuel x pos pidx pst off) (range (G c) pos t)).
    { apply Hwalk; [reflexivity|reflexivity|exact Hft|intros _; destruct (div_floor f pp) as (q & -> & H); [lia|exact H]|].
      pose proof stored_pages. unfold len in *. lia. }
    induction fuel as [|fuel IH]; intros x pos pidx pst off Hpst -> Hpt Hin Hfu;
      destruct (N.lt_ge_cases pos t) as [Hlt|Hge].
    2, 4: rewrite L_end, range_nil by lia; apply goodP_nil.
    - destruct (Hin Hlt). lia.
    - destruct (Hin Hlt) as [Hlo Hhi].
      destruct (page_slice_good pidx pst pos t Hpst Hlt Ht) as (p & Hg & Hreg & Hle & Hpe & Hbody); [lia..|].
      destruct (L_step fuel x pos pidx pst p Hg Hpst Hlt Hlo Hle Hreg) as (pre & x' & Hpre & ->).
      set (pe := N.min (t - pst) (len (pg_vals p))) in *. clearbody pe.
      apply (goodP_app _ pre _ []); [exact Hpre|].
      apply (goodP_split _ (pst + pe)); [lia|lia| |apply IH; lia]. now rewrite N.max_l in Hbody by lia.
  Qed.

  Theorem cmmap_src_good strict f t : f <= t -> t <= c_stored c ->
    cgood c (cmmap_src strict c (c_stored c) f t) (flat_map (G c) (seqN f (N.to_nat (t - f)))).
  Proof.
    intros Hft Ht. unfold cmmap_src. fold pp ps. rewrite range_eq, (N.min_l f), (N.min_l t) by lia.
    apply (walk_good bool (fun fuel strict pos => cmmap_loop fuel strict c pos t) f t Hft Ht).
    - intros [|fuel] s pos pidx pst off Hge; cbn [cmmap_loop]; [reflexivity|]. now replace (t <=? pos) with true by lia.
    - intros fuel s pos pidx pst p Hg _ Hlt Hlo pe Hle Hreg. exists [page_fetch p], s.
      split; [apply goodP_fetch; [exact Hreg|apply goodP_nil]|].
      cbn [cmmap_loop app]. replace (t <=? pos) with false by lia. rewrite nth_n_get. fold ps pp. rewrite Hg. fold pe.
      replace (pe <? pos - pst) with false by lia. now rewrite andb_false_r.
  Qed.

  (* CompressedIoSource: the same page walk, pages served from a file buffer that is refilled with as
     many whole pages as fit.  Needs every page to fit the buffer and to be non-empty on disk
     (otherwise refill_buffer gives up and the scan silently stops). *)
  Definition io_sized : Prop :=
    forall i p, get ps i = Some p -> 0 < pg_bytes p /\ pg_bytes p <= BUFFER_SIZE.

  Lemma refill_ok pidx p b : io_sized -> get ps pidx = Some p -> pidx <= b ->
    let total := refill_total (slice pidx (b + 1) ps) 0 in
    0 < total /\ pg_start p + total <= c_rlen c.
  Proof.
    intros Hio Hg Hb total. destruct cwf_parts as (_ & Hok & _). destruct (Hio pidx p Hg) as [Hb0 Hb1].
    pose proof (drop_get_cons ps pidx p Hg) as Edrop. set (r := drop (pidx + 1) ps) in Edrop.
    apply (pages_ok_skipn _ _ (N.to_nat pidx)) in Hok. fold (drop pidx ps) in Hok. rewrite Edrop in Hok.
    subst total. unfold slice, take. rewrite Edrop.
    split; [|pose proof (refill_total_le _ _ r p (N.to_nat (b + 1 - pidx)) 0 Hok); lia].
    replace (N.to_nat (b + 1 - pidx)) with (S (N.to_nat (b - pidx))) by lia. cbn [firstn refill_total].
    replace (BUFFER_SIZE <? 0 + pg_bytes p) with false by lia.
    pose proof (refill_total_ge (firstn (N.to_nat (b - pidx)) r) (0 + pg_bytes p)). lia.
  Qed.

  Theorem cio_src_good strict f t : io_sized -> f <= t -> t <= c_stored c ->
    cgood c (cio_src strict c (c_stored c) f t) (flat_map (G c) (seqN f (N.to_nat (t - f)))).
  Proof.
    intros Hio Hft Ht. destruct cwf_parts as (Hpp & _). unfold cio_src. fold pp ps.
    rewrite range_eq, (N.min_l f), (N.min_l t) by lia.
    apply (walk_good (N * N) (fun fuel b pos pidx pst off => cio_loop fuel strict c pos t pidx pst off (fst b) (snd b))
             f t Hft Ht) with (x := (0, 0)).
    - intros [|fuel] b pos pidx pst off Hge; cbn [cio_loop]; [reflexivity|]. now replace (t <=? pos) with true by lia.
    - intros fuel [bstart blen] pos pidx pst p Hg Hpst Hlt Hlo pe Hle Hreg. cbn [fst snd cio_loop].
      replace (t <=? pos) with false by lia. rewrite nth_n_get. fold ps pp. rewrite Hg. fold pe.
      replace (t =? 0) with false by lia.
      (* the refill reads page pidx and as many of its successors as the request needs and the buffer holds *)
      destruct (refill_ok pidx p (N.min ((t - 1) / pp) (len ps - 1))) as [Htot Hfetch]; [exact Hio|exact Hg| |].
      { apply N.min_glb; [apply N.div_le_lower_bound|pose proof (get_some_lt _ _ _ Hg)]; lia. }
      set (total := refill_total _ 0) in *.
      set (inb := (0 <? blen) && (bstart <=? pg_start p) && (pg_start p + pg_bytes p <=? bstart + blen)).
      replace (negb inb && (total =? 0)) with false by (destruct inb; cbn; lia).
      replace (pe <? pos - pst) with false by lia. rewrite andb_false_r.
      exists (if inb then [] else [Fetch (pg_start p) total]), (if inb then bstart else pg_start p, if inb then blen else total).
      split; [|reflexivity].
      destruct inb; [apply goodP_nil|apply goodP_fetch; [exact Hfetch|apply goodP_nil]].
  Qed.

  Theorem cfold_source_good strict f t : io_sized -> f <= t -> t <= c_stored c ->
    cgood c (cfold_source strict c (c_stored c) f t) (flat_map (G c) (seqN f (N.to_nat (t - f)))).
  Proof.
    intros. unfold cfold_source. replace (t <? f) with false by lia.
    destruct (c_xo c <? (t - f) * c_sz c); [now apply cio_src_good|now apply cmmap_src_good].
  Qed.
  Theorem cfold_range_at_good strict from to : io_sized ->
    cgood c (cfold_range_at strict c from to) (cexpected c from to).
  Proof.
    intros Hio. rewrite cexpected_eq. unfold cfold_range_at.
    set (f := N.min from (clen c)). set (t := N.min to (clen c)).
    apply goodP_clamp. intros Hlt. rewrite cfold_pushed_tail.
    apply (fold_shape_good _ (G c) (c_stored c) (c_pushed c) cview_pushed); [lia|apply N.le_min_r| |];
      intros; apply cfold_source_good; auto; lia.
  Qed.
  Theorem cfold_stored_good io from to : io_sized ->
    cgood c (cfold_stored io c from to)
      (flat_map (G c) (seqN (N.min from (c_stored c))
                            (N.to_nat (N.min to (c_stored c) - N.min from (c_stored c))))).
  Proof.
    intros Hio. rewrite range_eq. apply goodP_clamp. intros Hlt.
    destruct io; [apply cio_src_good|apply cmmap_src_good]; auto; lia.
  Qed.
  Theorem cro_fold_range_good strict from to : io_sized ->
    cgood c (cro_fold_range strict c from to)
      (flat_map (G c) (seqN (N.min from (c_stored c))
                            (N.to_nat (N.min to (c_stored c) - N.min from (c_stored c))))).
  Proof. intros Hio. rewrite range_eq. apply goodP_clamp. intros Hlt. apply cfold_source_good; auto; lia. Qed.

  Theorem ccollect_one_at_good i : io_sized ->
    cgood c (ccollect_one_at c i) (if i <? clen c then G c i else []).
  Proof.
    intros Hio. unfold ccollect_one_at. rewrite N.ltb_antisym.
    destruct (N.leb_spec (clen c) i) as [Hl|Hl]; [apply goodP_nil|]. cbn [negb].
    pose proof (cfold_range_at_good false i (i + 1) Hio) as H.
    now rewrite cexpected_eq, !N.min_l, range_one in H by lia.
  Qed.

  Lemma cview_full k : k < clen c -> cview c k <> None.
  Proof.
    intros Hk. destruct cwf_parts as (Hpp & Hok & Hst). unfold clen in Hk.
    destruct (N.lt_ge_cases k (c_stored c)) as [Hs|Hs].
    - destruct (div_floor k pp) as (pidx & _ & Hlo & Hhi); [lia|].
      destruct (pages_ok_at _ _ _ pidx (k + 1) Hok) as (p & Hg & _ & Hc); [lia..|].
      replace k with (pidx * pp + (k - pidx * pp)) by lia. rewrite (page_view pidx p) by (auto; lia).
      destruct (get_some (pg_vals p) (k - pidx * pp)) as [x ->]; [lia|discriminate].
    - unfold cview. replace (k <? c_stored c) with false by lia. rewrite nth_n_get.
      destruct (get_some (c_pushed c) (k - c_stored c)) as [x ->]; [lia|discriminate].
  Qed.
  Lemma cview_out k : clen c <= k -> cview c k = None.
  Proof.
    intros Hk. unfold cview, clen in *. replace (k <? c_stored c) with false by lia.
    rewrite nth_n_get. apply get_none. lia.
  Qed.
End Pages.

(* instances of the generic theorems of RdCursorProofs: compressed vectors have no deleted slots *)
Section CompGeneric.
  Variable c : cstate.
  Hypothesis W : cwf c.
  Lemma expect_comp f t : expect (comp_rvec c) (cview c) f t = cexpected c f t.
  Proof. reflexivity. Qed.
  Lemma comp_read f t : goodP (in_cregion c) (v_read_into (comp_rvec c) f t) (expect (comp_rvec c) (cview c) f t).
  Proof. rewrite expect_comp. apply (cread_into_at_good c W f t). Qed.
  Ltac comp_hyps := first [exact (cview_full c W) | exact (cview_out c) | exact comp_read].

  Theorem comp_read_sorted idx :
    exists a, read_sorted (comp_rvec c) idx = (ROk (flat_map (fun i => opt_list (cview c i)) idx), a)
              /\ Forall (in_cregion c) a.
  Proof. eapply (read_sorted_spec (comp_rvec c) (cview c) (in_cregion c)); comp_hyps. Qed.
  Theorem comp_cursor_get cu i : Inv (comp_rvec c) (cview c) cu ->
    exists cu' a, cursor_get (comp_rvec c) cu i = (COpt (cview c i), cu', a)
      /\ Inv (comp_rvec c) (cview c) cu' /\ cu_pos cu' = cu_pos cu /\ Forall (in_cregion c) a.
  Proof. intros I. eapply (cursor_get_spec (comp_rvec c) (cview c) (in_cregion c)); try comp_hyps. exact I. Qed.
  Theorem comp_cursor_fold k : clen c <= u64_max ->
    exists cu' a, cursor_fold (comp_rvec c) cursor_new k = (CList (cexpected c 0 k), cu', a)
      /\ cu_pos cu' = N.min k (clen c) /\ Forall (in_cregion c) a.
  Proof. rewrite <- expect_comp. apply (cursor_fold_new (comp_rvec c) (cview c) (in_cregion c)); comp_hyps. Qed.
  Theorem comp_cached_fresh from to :
    exists d a, materialize (comp_rvec c) None = (ROk d, Some (clen c, d), a) /\ Forall (in_cregion c) a
      /\ cached_fold d from to = cexpected c from to /\ cached_read_into d from to = cexpected c from to.
  Proof.
    rewrite <- !expect_comp.
    destruct (cached_fresh (comp_rvec c) (cview c) (in_cregion c)) with (f := from) (t := to)
      as (a & H); try comp_hyps.
    exists (data (comp_rvec c) (cview c)), a. tauto.
  Qed.
End CompGeneric.
