(* Vec/RdProofs.v — the raw read-path models of RdModel.
   `goodP P s ys`: the stream s neither panics nor decodes bytes outside the valid data, hands exactly
   ys to the caller, and every byte range it fetches satisfies P; `good c` is goodP with P = "ends at or
   below the region length of c".  One statement per path therefore carries both the C08 and the C20 claim.
   The paths of the read-write vector are good for ALL well-formed states (including stored_len above the on-disk
   length) and ALL requests, except: fold_dirty / try_fold_dirty for from <= to <= len, as their callers clamp (on a
   reversed request `holes.range(from..to)` panics); read_at_once for states without overlays.  The paths that read
   stored slots alone (both scan back-ends, fold_stored_{io,mmap}, VecReader, get_pushed_or_read_at, the lean
   clone's paths) need `not_expanded c` (stored_len at most the on-disk length); without it
   `clone_after_rollback_refuted`. *)
From Anydb Require Import Common.Base Common.ListFacts Gen.Consts Gen.Sizes Vec.RdModel.

Definition wf (c : rstate) : Prop := wf_b c = true.
Definition in_region (c : rstate) (a : acc) : Prop := fst a + snd a <= region_len c.
Definition goodP (P : acc -> Prop) (s : stream) (ys : list N) : Prop :=
  yields s = ys /\ clean s = true /\ Forall P (fetches s).
Definition good (c : rstate) := goodP (in_region c).
Definition accesses_ok (c : rstate) (s : stream) : Prop := Forall (in_region c) (fetches s).
Definition not_expanded (c : rstate) : Prop := r_stored c <= len (r_disk c).

Lemma goodP_nil (P : acc -> Prop) : goodP P [] [].
Proof. split; [reflexivity|split; [reflexivity|constructor]]. Qed.
Lemma clean_app a b : clean a = true ->
  yields (a ++ b) = yields a ++ yields b /\ clean (a ++ b) = clean b /\ fetches (a ++ b) = fetches a ++ fetches b.
Proof.
  induction a as [|[] a IH]; cbn; intros C; try discriminate; auto; destruct (IH C) as (-> & -> & ->); auto.
Qed.
Lemma goodP_app (P : acc -> Prop) a b ya yb : goodP P a ya -> goodP P b yb -> goodP P (a ++ b) (ya ++ yb).
Proof.
  intros (<- & Ca & Fa) (<- & Cb & Fb). unfold goodP. destruct (clean_app a b Ca) as (-> & -> & ->).
  split; [reflexivity|split; [exact Cb|apply Forall_app; auto]].
Qed.
Lemma goodP_flat_map {K} (P : acc -> Prop) (h : K -> stream) (Y : K -> list N) ks :
  (forall k, In k ks -> goodP P (h k) (Y k)) -> goodP P (flat_map h ks) (flat_map Y ks).
Proof.
  induction ks as [|k ks IH]; intros H; cbn; [apply goodP_nil|].
  apply goodP_app; [apply H; now left|apply IH; intros; apply H; now right].
Qed.
Lemma goodP_yields (P : acc -> Prop) l : goodP P (map Yield l) l.
Proof. induction l as [|x l (Y & C & F)]; [apply goodP_nil|]. unfold goodP; cbn. split; [now rewrite Y|split; auto]. Qed.
Lemma goodP_fetch (P : acc -> Prop) o l s ys : P (o, l) -> goodP P s ys -> goodP P (Fetch o l :: s) ys.
Proof. intros H (Y & C & F). unfold goodP; cbn. split; [auto|split; auto]. Qed.
Lemma goodP_weaken (P Q : acc -> Prop) s ys : (forall a, P a -> Q a) -> goodP P s ys -> goodP Q s ys.
Proof. intros H (Y & C & F). repeat split; auto. eapply Forall_impl; eauto. Qed.

Lemma run_aux_clean s : forall ya fa, clean s = true ->
  run_aux s ya false fa = (ROk (rev ya ++ yields s), rev fa ++ fetches s).
Proof.
  induction s as [|e s IH]; intros ya fa C; cbn.
  - now rewrite !rev_append_rev, !app_nil_r.
  - destruct e; cbn in C; try discriminate; rewrite IH by auto; cbn; now rewrite <- !app_assoc.
Qed.
(* `run` is the function the differential engine executes *)
Lemma goodP_run (P : acc -> Prop) s ys : goodP P s ys -> run s = (ROk ys, fetches s).
Proof. intros (Y & C & _). unfold run. rewrite run_aux_clean by auto. now rewrite Y. Qed.

Lemma flat_map_ext_in {A B} (F G : A -> list B) l : (forall k, In k l -> F k = G k) -> flat_map F l = flat_map G l.
Proof. induction l; cbn; intros H; auto. rewrite H by now left. f_equal. apply IHl. intros; apply H; now right. Qed.

(* what a path yields for the request [f, t) is `range Y f t`, for the path's own Y *)
Definition range {B} (Y : N -> list B) (f t : N) : list B := flat_map Y (seqN f (N.to_nat (t - f))).
(* The theorems that Props cite spell `range` out.  Their proofs fold it first; applied to a goal over
   `range` they unify by unfolding it. *)
Lemma range_eq {B} (Y : N -> list B) f t : flat_map Y (seqN f (N.to_nat (t - f))) = range Y f t.
Proof. reflexivity. Qed.
Lemma range_nil {B} (Y : N -> list B) f t : t <= f -> range Y f t = [].
Proof. intros. unfold range. replace (N.to_nat (t - f)) with O by lia. reflexivity. Qed.
Lemma range_one {B} (Y : N -> list B) i : range Y i (i + 1) = Y i.
Proof. unfold range. replace (N.to_nat (i + 1 - i)) with 1%nat by lia. apply app_nil_r. Qed.
Lemma range_split {B} (Y : N -> list B) m f t : f <= m -> m <= t -> range Y f t = range Y f m ++ range Y m t.
Proof.
  intros. unfold range. replace (N.to_nat (t - f)) with (N.to_nat (m - f) + N.to_nat (t - m))%nat by lia.
  rewrite seqN_app, flat_map_app. do 3 f_equal. lia.
Qed.
Lemma range_ext {B} (Y Z : N -> list B) f t : (forall k, f <= k -> k < t -> Y k = Z k) -> range Y f t = range Z f t.
Proof. intros H. apply flat_map_ext_in. intros k Hk. apply in_seqN in Hk. apply H; lia. Qed.
Lemma goodP_split (P : acc -> Prop) m a b Y f t : f <= m -> m <= t ->
  goodP P a (range Y f m) -> goodP P b (range Y m t) -> goodP P (a ++ b) (range Y f t).
Proof. intros. rewrite (range_split Y m) by auto. now apply goodP_app. Qed.
(* the `if to <= from { return }` that opens every range path *)
Lemma goodP_clamp (P : acc -> Prop) s Y f t :
  (f < t -> goodP P s (range Y f t)) -> goodP P (if t <=? f then [] else s) (range Y f t).
Proof. intros H. destruct (N.leb_spec t f); [rewrite range_nil by auto; apply goodP_nil|auto]. Qed.

(* the quotient gets a name, and what follows sees no division *)
Lemma div_floor a b : 0 < b -> exists q, a / b = q /\ q * b <= a /\ a < q * b + b.
Proof. intros. exists (a / b). pose proof (N.div_mod' a b). pose proof (N.mod_lt a b). lia. Qed.

Lemma io_bufsize_div c : 0 < r_sz c -> io_bufsize c / r_sz c = BUFFER_SIZE / r_sz c.
Proof. intros. unfold io_bufsize. now rewrite N.div_mul by lia. Qed.
Lemma min_mul_div a b s : 0 < s -> N.min (a * s) (b * s) / s = N.min a b.
Proof. intros. rewrite N.mul_min_distr_r. apply N.div_mul. lia. Qed.

Lemma nth_n_get {A} (l : list A) i : nth_n l i = get l i.
Proof. unfold nth_n. destruct (N.leb_spec (len l) i); [symmetry; now apply get_none|reflexivity]. Qed.

Lemma skipn_step {A} (l : list A) : forall n,
  match skipn n l with
  | [] => nth_opt l n = None /\ skipn (S n) l = []
  | x :: r => nth_opt l n = Some x /\ skipn (S n) l = r
  end.
Proof.
  induction l as [|a l IH]; intros n.
  - rewrite !skipn_nil. destruct n; auto.
  - destruct n; [cbn; auto|]. cbn [skipn nth_opt]. apply IH.
Qed.
Lemma drop_step {A} (d : list A) j :
  match drop j d with
  | [] => get d j = None /\ drop (j + 1) d = []
  | x :: r => get d j = Some x /\ drop (j + 1) d = r
  end.
Proof.
  unfold drop, get. replace (N.to_nat (j + 1)) with (S (N.to_nat j)) by lia. apply skipn_step.
Qed.
Lemma dra_step (d : list N) j n :
  disk_range_aux (drop j d) (S n) = get d j :: disk_range_aux (drop (j + 1) d) n.
Proof.
  pose proof (drop_step d j) as H. cbn [disk_range_aux].
  destruct (drop j d); destruct H as [-> ->]; reflexivity.
Qed.

(* a slice, index-wise; o is where the list sits in the index space of Y *)
Lemma slice_range {A} (l : list A) (Y : N -> list A) o a b :
  (forall k, a <= k -> k < b -> Y (o + k) = opt_list (get l k)) -> slice a b l = range Y (o + a) (o + b).
Proof.
  intros H. unfold slice, take, range. replace (o + b - (o + a)) with (b - a) by lia.
  remember (N.to_nat (b - a)) as n eqn:En. revert a H En.
  induction n as [|n IH]; intros a H En; [reflexivity|]. cbn [seqN flat_map].
  replace (o + a + 1) with (o + (a + 1)) by lia. rewrite <- IH, H by (intros; try apply H; lia).
  pose proof (drop_step l a) as D. destruct (drop a l); destruct D as [-> ->]; [now rewrite !firstn_nil|reflexivity].
Qed.

(* every element-wise loop of the read paths emits, for the index i and the decoded element o, a stream `g i o` *)
Fixpoint scan (g : N -> option N -> stream) (i : N) (l : list (option N)) : stream :=
  match l with [] => [] | o :: r => g i o ++ scan g (i + 1) r end.

Lemma scan_good (P : acc -> Prop) g Y (d : list N) : forall n i j,
  (forall k, (k < n)%nat -> goodP P (g (i + N.of_nat k) (get d (j + N.of_nat k))) (Y (i + N.of_nat k))) ->
  goodP P (scan g i (disk_range_aux (drop j d) n)) (flat_map Y (seqN i n)).
Proof.
  induction n as [|n IH]; intros i j H; [apply goodP_nil|].
  rewrite dra_step. cbn [scan seqN flat_map]. apply goodP_app.
  - specialize (H O ltac:(lia)). cbn in H. now rewrite !N.add_0_r in H.
  - apply IH. intros k Hk. specialize (H (S k) ltac:(lia)).
    replace (i + 1 + N.of_nat k) with (i + N.of_nat (S k)) by lia.
    replace (j + 1 + N.of_nat k) with (j + N.of_nat (S k)) by lia. exact H.
Qed.
(* elements [j, t) of d, walked with the index running from i to e *)
Lemma scan_range_good (P : acc -> Prop) g Y (d : list N) i e j t : e - i = t - j ->
  (forall k, k < t - j -> goodP P (g (i + k) (get d (j + k))) (Y (i + k))) ->
  goodP P (scan g i (disk_range d j t)) (range Y i e).
Proof. intros E H. unfold disk_range, range. rewrite E. apply scan_good. intros k Hk. apply H. lia. Qed.

Lemma ptr_evs_scan c l : forall i, ptr_evs c i l = scan (fun k o => [Fetch (eoff c k) (r_sz c); ev_of o]) i l.
Proof. induction l; intros; cbn; auto. now rewrite IHl. Qed.
Lemma dirty_stored_scan c l : forall i, dirty_stored_evs c i l =
  scan (fun k o => if is_hole c k then [] else match upd_get c k with
                                               | Some u => [Yield u]
                                               | None => [Fetch (eoff c k) (r_sz c); ev_of o] end) i l.
Proof. induction l; intros; cbn; auto. now rewrite IHl. Qed.
Lemma dirty_pushed_scan c l : forall i, dirty_pushed_evs c i l =
  scan (fun k o => if is_hole c k then [] else map Yield (opt_list o)) i l.
Proof. induction l; intros; cbn; auto. now rewrite IHl. Qed.
Lemma map_ev_scan l : forall i, map ev_of l = scan (fun _ o => [ev_of o]) i l.
Proof. induction l; intros; cbn; auto. now rewrite (IHl (i + 1)). Qed.

Lemma wf_sizes c : wf c -> 0 < r_sz c /\ r_sz c <= BUFFER_SIZE.
Proof.
  unfold wf, wf_b. intros H.
  apply andb_prop in H as [H _]. apply andb_prop in H as [H _]. apply andb_prop in H as [H1 H2]. lia.
Qed.
Lemma wf_sz c : wf c -> 0 < r_sz c.
Proof. intros H. now apply wf_sizes in H. Qed.

(* R3 of DESIGN appendix B.1 *)
Lemma wf_on_disk c i :
  wf c -> i < r_stored c -> is_hole c i = false -> upd_get c i = None -> i < len (r_disk c).
Proof.
  intros W Hi Hh Hu. apply andb_prop in W as [_ H].
  destruct (N.lt_ge_cases i (len (r_disk c))) as [|Hge]; auto.
  rewrite forallb_forall in H. specialize (H i ltac:(apply in_seqN; lia)).
  rewrite Hh, Hu in H. discriminate.
Qed.

Lemma dirty_false c : dirty c = false -> r_holes c = [] /\ r_upd c = [].
Proof. unfold dirty. destruct (r_holes c), (r_upd c); cbn; intros; try discriminate; auto. Qed.
Lemma clean_no_hole c i : dirty c = false -> is_hole c i = false /\ upd_get c i = None.
Proof. intros H. apply dirty_false in H as [H1 H2]. unfold is_hole, upd_get. now rewrite H1, H2. Qed.
Lemma clean_not_expanded c : wf c -> dirty c = false -> not_expanded c.
Proof.
  intros W D. unfold not_expanded.
  destruct (N.le_gt_cases (r_stored c) (len (r_disk c))) as [|H]; auto.
  destruct (clean_no_hole c (len (r_disk c)) D) as [Hh Hu].
  pose proof (wf_on_disk c _ W H Hh Hu). lia.
Qed.

Definition V (c : rstate) (k : N) : list N := opt_list (view c k).
Definition D (c : rstate) (k : N) : list N := opt_list (get (r_disk c) k).

Lemma in_region_span c f n : f + n <= len (r_disk c) -> in_region c (eoff c f, n * r_sz c).
Proof.
  intros H. unfold in_region, eoff, region_len. cbn [fst snd].
  rewrite <- N.add_assoc, <- N.mul_add_distr_r. now apply N.add_le_mono_l, N.mul_le_mono_r.
Qed.
Lemma ev_on_disk c i : i < len (r_disk c) -> good c [ev_of (get (r_disk c) i)] (D c i).
Proof. intros H. destruct (get_some _ _ H) as [v Hv]. unfold D. rewrite Hv. apply (goodP_yields _ [v]). Qed.
Lemma disk_evs_good c f t : t <= len (r_disk c) -> good c (map ev_of (disk_range (r_disk c) f t)) (range (D c) f t).
Proof.
  intros Ht. rewrite (map_ev_scan _ f). apply scan_range_good; [reflexivity|]. intros k Hk. apply ev_on_disk. lia.
Qed.
Lemma elem_on_disk c i : i < len (r_disk c) -> good c [Fetch (eoff c i) (r_sz c); ev_of (get (r_disk c) i)] (D c i).
Proof.
  intros H. apply goodP_fetch; [rewrite <- (N.mul_1_l (r_sz c)); apply in_region_span; lia|now apply ev_on_disk].
Qed.
Lemma read_elem_good c i : i < len (r_disk c) -> good c (read_elem c i) (D c i).
Proof. intros. unfold read_elem. rewrite nth_n_get. now apply elem_on_disk. Qed.

Lemma view_stored_plain c k : k < r_stored c -> is_hole c k = false -> upd_get c k = None -> V c k = D c k.
Proof. intros Hk Hh Hu. unfold V, D, view. rewrite !nth_n_get. replace (k <? r_stored c) with true by lia. now rewrite Hh, Hu. Qed.
Lemma view_pushed c k : r_stored c <= k -> is_hole c k = false -> V c k = opt_list (get (r_pushed c) (k - r_stored c)).
Proof. intros Hk Hh. unfold V, view. rewrite !nth_n_get. replace (k <? r_stored c) with false by lia. now rewrite Hh. Qed.

Lemma view_out c k : rlen c <= k -> view c k = None.
Proof.
  intros Hk. unfold view, rlen in *. destruct (is_hole c k); auto.
  replace (k <? r_stored c) with false by lia. rewrite nth_n_get. apply get_none. lia.
Qed.
Lemma expected_one_view c i : expected_one c i = view c i.
Proof. unfold expected_one. destruct (N.ltb_spec i (rlen c)); auto. symmetry. now apply view_out. Qed.
Lemma expected_eq c from to : expected c from to = range (V c) (N.min from (rlen c)) (N.min to (rlen c)).
Proof. reflexivity. Qed.

Theorem get_any_good c i : wf c -> good c (get_any c i) (V c i).
Proof.
  intros W. unfold get_any, V, view. rewrite ?nth_n_get.
  destruct (is_hole c i) eqn:Hh; [apply goodP_nil|].
  destruct (N.leb_spec (r_stored c) i) as [Hs|Hs].
  - replace (i <? r_stored c) with false by lia. apply goodP_yields.
  - replace (i <? r_stored c) with true by lia.
    destruct (upd_get c i) as [u|] eqn:Hu; [apply (goodP_yields _ [u])|].
    apply read_elem_good. now apply wf_on_disk.
Qed.
(* collect_one_at and read_at_once spell this two-way read out themselves *)
Lemma get_any_clean c i : dirty c = false ->
  get_any c i = if r_stored c <=? i then map Yield (opt_list (nth_n (r_pushed c) (i - r_stored c))) else read_elem c i.
Proof. intros Dd. unfold get_any. destruct (clean_no_hole c i Dd) as [-> ->]. reflexivity. Qed.
Theorem collect_one_good c i : wf c -> good c (collect_one_at c i) (opt_list (expected_one c i)).
Proof.
  intros W. unfold collect_one_at, expected_one. rewrite N.ltb_antisym.
  destruct (rlen c <=? i); [apply goodP_nil|]. cbn [negb].
  destruct (dirty c) eqn:Dd; [|rewrite <- get_any_clean by exact Dd]; now apply get_any_good.
Qed.
Theorem holed_range_good c from to : wf c ->
  Forall2 (fun s k => good c s (V c k)) (holed_range c from to)
          (seqN (N.min from (rlen c)) (N.to_nat (N.min to (rlen c) - N.min from (rlen c)))).
Proof.
  intros W. unfold holed_range.
  induction (seqN _ _) as [|k ks IH]; cbn; constructor; auto. now apply get_any_good.
Qed.
Theorem read_at_once_buffered c i : r_stored c <= i -> i < rlen c ->
  good c (read_at_once c i) (opt_list (get (r_pushed c) (i - r_stored c))).
Proof.
  intros Hs Hl. unfold read_at_once. replace (i <? rlen c) with true by lia.
  replace (r_stored c <=? i) with true by lia. rewrite nth_n_get.
  destruct (get_some (r_pushed c) (i - r_stored c)) as [v ->]; [unfold rlen in Hl; lia|]. apply (goodP_yields _ [v]).
Qed.
(* read_at / read_at_once serve a buffered index from the pushed buffer (/repo commit 0cb3a2b) *)
Theorem read_at_once_good c i : wf c -> dirty c = false -> good c (read_at_once c i) (opt_list (expected_one c i)).
Proof.
  intros W Dd. unfold expected_one, read_at_once. destruct (N.ltb_spec i (rlen c)) as [Hl|Hl]; [|apply goodP_nil].
  pose proof (get_any_good c i W) as G. rewrite (get_any_clean c i Dd) in G.
  destruct (r_stored c <=? i) eqn:Hs; [|exact G].
  (* `pushed()[i - stored_len]` indexes below the buffer's length *)
  destruct (get_some (r_pushed c) (i - r_stored c)) as [v Hv]; [unfold rlen in Hl; lia|].
  rewrite nth_n_get, Hv in *. exact G.
Qed.
Theorem read_ref_at_good c i : wf c ->
  good c (read_ref_at c i)
    (if is_hole c i then [] else if r_stored c <=? i then [] else
       match upd_get c i with Some _ => [] | None => V c i end).
Proof.
  intros W. unfold read_ref_at.
  destruct (is_hole c i) eqn:Hh; [apply goodP_nil|].
  destruct (N.leb_spec (r_stored c) i) as [Hs|Hs]; [apply goodP_nil|].
  destruct (upd_get c i) eqn:Hu; [apply goodP_nil|].
  pose proof (wf_on_disk c i W Hs Hh Hu) as Hd.
  pose proof (in_region_span c i 0 ltac:(lia)) as Hr. unfold in_region in Hr. cbn [fst snd] in Hr.
  replace (region_len c <? eoff c i) with false by lia.
  rewrite view_stored_plain by auto. now apply read_elem_good.
Qed.

(* VecReader / get_pushed_or_read_at / the lean clone's point read ignore the `updated` overlay by
   documentation: inside the region exactly when every stored index is on disk *)
Theorem vr_try_get_good c i : not_expanded c -> good c (vr_try_get c i) (if i <? r_stored c then D c i else []).
Proof.
  unfold vr_try_get, not_expanded. intros H. destruct (N.ltb_spec i (r_stored c)); [|apply goodP_nil].
  apply read_elem_good. lia.
Qed.
Theorem vr_get_good c i : not_expanded c -> i < r_stored c -> good c (vr_get c i) (D c i).
Proof.
  unfold vr_get, not_expanded. intros H Hi. replace (i <? r_stored c) with true by lia. apply read_elem_good. lia.
Qed.
Theorem get_pushed_or_read_good c i : not_expanded c -> i < rlen c ->
  good c (get_pushed_or_read c i) (if r_stored c <=? i then opt_list (get (r_pushed c) (i - r_stored c)) else D c i).
Proof.
  unfold get_pushed_or_read. intros H Hi. destruct (N.leb_spec (r_stored c) i).
  - rewrite nth_n_get. apply goodP_yields.
  - now apply vr_get_good.
Qed.
Theorem ro_collect_one_good c i : not_expanded c -> good c (ro_collect_one c i) (if r_stored c <=? i then [] else D c i).
Proof.
  unfold ro_collect_one, not_expanded. intros H. destruct (N.leb_spec (r_stored c) i); [apply goodP_nil|].
  apply read_elem_good. lia.
Qed.

Theorem mmap_src_good c f t : f <= t -> t <= r_stored c -> not_expanded c ->
  good c (mmap_src c (r_stored c) f t) (flat_map (D c) (seqN f (N.to_nat (t - f)))).
Proof.
  unfold not_expanded, mmap_src. intros Hft Ht Hd. rewrite range_eq, (N.min_l f), (N.min_l t) by lia.
  rewrite ptr_evs_scan. apply scan_range_good; [reflexivity|]. intros k Hk. apply elem_on_disk. lia.
Qed.

Lemma eoff_sub c f t : eoff c t - eoff c f = (t - f) * r_sz c.
Proof. unfold eoff. rewrite N.mul_sub_distr_r. lia. Qed.
Lemma eoff_lt c i j : 0 < r_sz c -> i < j -> eoff c i < eoff c j.
Proof. intros. unfold eoff. now apply N.add_lt_mono_l, N.mul_lt_mono_pos_r. Qed.
(* the buffer holds q elements; `fuel` refills reach the end t of the request *)
Lemma io_loop_good c q t : 0 < r_sz c -> 1 <= q -> io_bufsize c = q * r_sz c -> t <= len (r_disk c) ->
  forall fuel i0, i0 <= t -> t <= i0 + N.of_nat fuel * q ->
  good c (io_loop fuel c (eoff c i0) (eoff c t)) (range (D c) i0 t).
Proof.
  intros Hsz Hq Hbuf Ht. induction fuel as [|fuel IH]; intros i0 Hi Hf; [rewrite range_nil by lia; apply goodP_nil|].
  cbn [io_loop]. destruct (N.lt_ge_cases i0 t) as [Hit|Hge].
  - (* one refill, in index terms: it takes the m = min (t - i0) q elements from i0 on *)
    replace (eoff c t <=? eoff c i0) with false by (pose proof (eoff_lt c i0 t Hsz Hit); lia).
    rewrite Hbuf, eoff_sub, N.mul_min_distr_r. set (m := N.min (t - i0) q).
    replace ((eoff c i0 - HEADER_OFFSET) / r_sz c) with i0 by (unfold eoff; rewrite N.add_comm, N.add_sub, N.div_mul; lia).
    rewrite N.div_mul by lia.
    replace (m * r_sz c =? 0) with false by (symmetry; apply N.eqb_neq, N.neq_mul_0; lia).
    replace (eoff c i0 + m * r_sz c) with (eoff c (i0 + m)) by (unfold eoff; lia).
    apply goodP_fetch; [apply in_region_span; lia|].
    apply (goodP_split _ (i0 + m)); [lia|lia|apply disk_evs_good; lia|apply IH; lia].
  - replace i0 with t by lia. rewrite N.leb_refl, range_nil by lia. apply goodP_nil.
Qed.
Theorem io_src_good c f t : wf c -> f <= t -> t <= r_stored c -> not_expanded c ->
  good c (io_src c (r_stored c) f t) (flat_map (D c) (seqN f (N.to_nat (t - f)))).
Proof.
  unfold not_expanded, io_src. intros W Hft Ht Hd. destruct (wf_sizes c W) as [Hsz Hbs].
  rewrite range_eq, (N.min_l f), (N.min_l t) by lia. apply (goodP_app _ _ _ []).
  - (* the seek is a fetch of no bytes *)
    destruct (eoff c f <? eoff c t); [apply goodP_fetch; [apply (in_region_span c f 0); lia|]|]; apply goodP_nil.
  - (* the fuel covers (t - f) / q + 1 refills *)
    assert (Hq : 1 <= BUFFER_SIZE / r_sz c) by (apply N.div_le_lower_bound; lia).
    assert (Hbuf : io_bufsize c = BUFFER_SIZE / r_sz c * r_sz c) by reflexivity.
    revert Hq Hbuf. generalize (BUFFER_SIZE / r_sz c). intros q Hq Hbuf. rewrite Hbuf.
    apply (io_loop_good c q t); auto; [lia|].
    assert (1 <= q * r_sz c) by (apply (N.mul_le_mono 1 q 1); lia).
    rewrite eoff_sub, N.max_r, N.div_mul_cancel_r by lia.
    destruct (div_floor (t - f) q) as (x & -> & _ & H'); lia.
Qed.
Theorem fold_source_good c f t : wf c -> f <= t -> t <= r_stored c -> not_expanded c ->
  good c (fold_source c (r_stored c) f t) (flat_map (D c) (seqN f (N.to_nat (t - f)))).
Proof.
  intros. unfold fold_source. replace (t <? f) with false by lia.
  destruct (r_xo c <? (t - f) * r_sz c); [now apply io_src_good|now apply mmap_src_good].
Qed.
(* the stored part of read_into_at: one memcpy out of the map for a native layout, else a scan *)
Lemma stored_part_good c f t : wf c -> f <= t -> t <= r_stored c -> not_expanded c ->
  good c (if r_native c then Fetch (eoff c f) ((t - f) * r_sz c) :: map ev_of (disk_range (r_disk c) f t)
          else fold_source c (r_stored c) f t) (range (D c) f t).
Proof.
  intros W Hft Ht Hd. destruct (r_native c); [|now apply fold_source_good]. unfold not_expanded in Hd.
  apply goodP_fetch; [apply in_region_span; lia|apply disk_evs_good; lia].
Qed.

Lemma clean_V_D c f t : dirty c = false -> t <= r_stored c -> range (D c) f t = range (V c) f t.
Proof.
  intros Dd H. apply range_ext. intros k _ Hk.
  destruct (clean_no_hole c k Dd). symmetry. apply view_stored_plain; auto. lia.
Qed.
Lemma view_pushed_clean c k : dirty c = false -> r_stored c <= k -> V c k = opt_list (get (r_pushed c) (k - r_stored c)).
Proof. intros Dd Hk. apply view_pushed; [exact Hk|apply (clean_no_hole c k Dd)]. Qed.

(* A request [f, t) to a vector that keeps the buffer `pushed` behind its s stored elements: the raw and the
   compressed vector run the same code on it, whatever their stored part is. *)
Section Tail.
  Variables (P : acc -> Prop) (Y : N -> list N) (s : N) (pushed : list N).
  Hypothesis Ytail : forall k, s <= k -> Y k = opt_list (get pushed (k - s)).

  (* `&pushed[a..b]`: a slice expression panics when a > b; the pointer loop of fold_pushed (not `strict`)
     has no such check *)
  Definition tail_part (strict : bool) (f t : N) : stream :=
    let a := N.max f s - s in
    let b := N.min (t - s) (len pushed) in
    if strict && (b <? a) then [Boom] else map Yield (slice a b pushed).
  Lemma tail_part_good strict f t : f <= t -> s < t -> t <= s + len pushed ->
    goodP P (tail_part strict f t) (range Y (N.max f s) t).
  Proof.
    intros Hft Hs Ht. unfold tail_part.
    replace (N.min (t - s) (len pushed) <? N.max f s - s) with false by lia. rewrite andb_false_r, N.min_l by lia.
    replace (N.max f s) with (s + (N.max f s - s)) at 2 by lia. replace t with (s + (t - s)) at 2 by lia.
    rewrite <- (slice_range pushed Y s); [apply goodP_yields|].
    intros k Hk _. rewrite Ytail by lia. now rewrite N.add_comm, N.add_sub.
  Qed.

  (* read_into_at: the stored part x, then the slice of the pushed buffer.  Both ranges are written from
     the meeting point min t (max f s), so that either may be empty *)
  Lemma read_shape_good x f t : f <= t -> t <= s + len pushed ->
    (f < s -> goodP P x (range Y f (N.min t s))) ->
    goodP P ((if f <? s then x else []) ++ (if s <? t then tail_part true f t else [])) (range Y f t).
  Proof.
    intros Hft Ht Hx. apply (goodP_split _ (N.min t (N.max f s))); [lia|lia| |].
    - destruct (N.ltb_spec f s); [|rewrite range_nil by lia; apply goodP_nil].
      replace (N.min t (N.max f s)) with (N.min t s) by lia. auto.
    - destruct (N.ltb_spec s t); [|rewrite range_nil by lia; apply goodP_nil].
      replace (N.min t (N.max f s)) with (N.max f s) by lia. now apply tail_part_good.
  Qed.
  (* fold_range_at / try_fold_range_at: a request inside the stored part goes to the source whole *)
  Lemma fold_shape_good strict x1 x2 f t : f <= t -> t <= s + len pushed ->
    (t <= s -> goodP P x1 (range Y f t)) -> (f < s -> s < t -> goodP P x2 (range Y f s)) ->
    goodP P (if t <=? s then x1
             else (if f <? s then x2 else []) ++ (if t <=? N.max f s then [] else tail_part strict f t))
      (range Y f t).
  Proof.
    intros Hft Ht H1 H2. destruct (N.leb_spec t s) as [Hts|Hts]; [auto|].
    apply (goodP_split _ (N.max f s)); [lia|lia| |].
    - destruct (N.ltb_spec f s); [|rewrite range_nil by lia; apply goodP_nil].
      replace (N.max f s) with s by lia. auto.
    - destruct (N.leb_spec t (N.max f s)); [rewrite range_nil by lia; apply goodP_nil|now apply tail_part_good].
  Qed.
End Tail.

Lemma pushed_slice_tail c f t :
  pushed_slice c f t = if r_stored c <? t then tail_part (r_stored c) (r_pushed c) true f t else [].
Proof. reflexivity. Qed.
Lemma fold_pushed_tail c f t :
  fold_pushed c f t = if t <=? N.max f (r_stored c) then [] else tail_part (r_stored c) (r_pushed c) false f t.
Proof. reflexivity. Qed.
Lemma try_fold_pushed_tail c f t :
  try_fold_pushed c f t = if t <=? N.max f (r_stored c) then [] else tail_part (r_stored c) (r_pushed c) true f t.
Proof. reflexivity. Qed.

Lemma get_any_stored c k : k < r_stored c ->
  get_any c k = if is_hole c k then [] else match upd_get c k with
                                            | Some u => [Yield u]
                                            | None => [Fetch (eoff c k) (r_sz c); ev_of (get (r_disk c) k)] end.
Proof. intros. unfold get_any, read_elem. rewrite !nth_n_get. now replace (r_stored c <=? k) with false by lia. Qed.
Lemma get_any_pushed c k : r_stored c <= k ->
  get_any c k = if is_hole c k then [] else map Yield (opt_list (get (r_pushed c) (k - r_stored c))).
Proof. intros. unfold get_any. rewrite nth_n_get. now replace (r_stored c <=? k) with true by lia. Qed.
Theorem fold_dirty_good c f t : wf c -> f <= t -> t <= rlen c ->
  good c (fold_dirty c f t) (flat_map (V c) (seqN f (N.to_nat (t - f)))).
Proof.
  intros W Hft Ht. rewrite range_eq. unfold fold_dirty. replace (t <? f) with false by lia.
  set (pf := N.max f (r_stored c)).
  apply (goodP_split _ (N.min t pf)); [lia|lia| |].
  - rewrite dirty_stored_scan. apply scan_range_good; [lia|]. intros k Hk.
    rewrite <- get_any_stored by lia. now apply get_any_good.
  - destruct (N.ltb_spec pf t) as [Hp|Hp]; [|rewrite range_nil by lia; apply goodP_nil].
    rewrite dirty_pushed_scan. replace (N.min t pf) with pf by lia. apply scan_range_good; [lia|]. intros k Hk.
    replace (pf - r_stored c + k) with (pf + k - r_stored c) by lia.
    rewrite <- get_any_pushed by lia. now apply get_any_good.
Qed.

Theorem read_into_at_good c from to : wf c -> good c (read_into_at c from to) (expected c from to).
Proof.
  intros W. rewrite expected_eq. unfold read_into_at.
  set (f := N.min from (rlen c)). set (t := N.min to (rlen c)).
  apply goodP_clamp. intros Hlt.
  destruct (dirty c) eqn:Dd; [apply fold_dirty_good; auto; lia|]. rewrite pushed_slice_tail.
  apply (read_shape_good _ (V c) (r_stored c) (r_pushed c)); [intros; now apply view_pushed_clean|lia|apply N.le_min_r|].
  intros Hs. rewrite <- clean_V_D by (auto; lia). apply stored_part_good; auto using clean_not_expanded; lia.
Qed.

Lemma fold_range_gen_good strict pp c from to : wf c ->
  (forall f t, pp c f t = if t <=? N.max f (r_stored c) then [] else tail_part (r_stored c) (r_pushed c) strict f t) ->
  good c (fold_range_gen pp c from to) (expected c from to).
Proof.
  intros W Hpp. rewrite expected_eq. unfold fold_range_gen.
  set (f := N.min from (rlen c)). set (t := N.min to (rlen c)).
  apply goodP_clamp. intros Hlt.
  destruct (dirty c) eqn:Dd; [apply fold_dirty_good; auto; lia|].
  pose proof (clean_not_expanded c W Dd) as Hne. rewrite Hpp.
  apply (fold_shape_good _ (V c) (r_stored c) (r_pushed c)); [intros; now apply view_pushed_clean|lia|apply N.le_min_r| |];
    intros; rewrite <- clean_V_D by (auto; lia); apply fold_source_good; auto; lia.
Qed.
Theorem fold_range_at_good c from to : wf c -> good c (fold_range_at c from to) (expected c from to).
Proof. intros W. exact (fold_range_gen_good false _ c from to W (fold_pushed_tail c)). Qed.
Theorem try_fold_range_at_good c from to : wf c -> good c (try_fold_range_at c from to) (expected c from to).
Proof. intros W. exact (fold_range_gen_good true _ c from to W (try_fold_pushed_tail c)). Qed.

Theorem fold_stored_good io c from to : wf c -> not_expanded c ->
  good c ((if io : bool then fold_stored_io else fold_stored_mmap) c from to)
    (flat_map (D c) (seqN (N.min from (r_stored c))
                          (N.to_nat (N.min to (r_stored c) - N.min from (r_stored c))))).
Proof.
  intros W Hne. rewrite range_eq.
  destruct io; apply goodP_clamp; intros; [apply io_src_good|apply mmap_src_good]; auto; lia.
Qed.
Theorem ro_read_into_good c from to : wf c -> not_expanded c ->
  good c (ro_read_into c from to)
    (flat_map (D c) (seqN (N.min from (r_stored c))
                          (N.to_nat (N.min to (r_stored c) - N.min from (r_stored c))))).
Proof.
  intros W Hne. rewrite range_eq. apply goodP_clamp. intros Hlt. apply stored_part_good; auto; lia.
Qed.
Theorem ro_fold_range_good c from to : wf c -> not_expanded c ->
  good c (ro_fold_range c from to)
    (flat_map (D c) (seqN (N.min from (r_stored c))
                          (N.to_nat (N.min to (r_stored c) - N.min from (r_stored c))))).
Proof. intros W Hne. rewrite range_eq. apply goodP_clamp. intros Hlt. apply fold_source_good; auto; lia. Qed.

(* an early-exiting closure sees a prefix of the full run and never makes a path fetch more *)
Theorem cut_good (P : acc -> Prop) k s ys : goodP P s ys -> goodP P (cut k s) (firstn (S k) ys).
Proof.
  revert k ys. induction s as [|[o l|v| |] s IH]; intros k ys (<- & C & F); cbn in C, F; try discriminate.
  - apply goodP_nil.
  - inversion F; subst. apply goodP_fetch; [assumption|]. apply IH. now split.
  - change (yields (Yield v :: s)) with ([v] ++ yields s).
    destruct k; [apply (goodP_yields _ [v])|].
    apply (goodP_app _ [Yield v] (cut k s) [v]); [apply (goodP_yields _ [v])|]. apply IH. now split.
Qed.
(* the value try_fold_range_at returns for the closure "accept k elements, then fail" *)
Theorem try_run_good (P : acc -> Prop) k s ys : goodP P s ys ->
  fst (try_run k s) = if k <? len ys then TEarly (take k ys) else TOk ys.
Proof.
  intros G. unfold try_run. rewrite (goodP_run P _ _ (cut_good P (N.to_nat k) s ys G)). cbn [fst].
  replace (firstn (S (N.to_nat k)) ys) with (take (k + 1) ys) by (unfold take; f_equal; lia).
  rewrite len_take. destruct (N.ltb_spec k (len ys)).
  - replace (k <? N.min (k + 1) (len ys)) with true by lia. now rewrite take_take by lia.
  - replace (k <? N.min (k + 1) (len ys)) with false by lia. now rewrite take_all by lia.
Qed.

Definition mk (sz : N) (native : bool) (disk : list N) (stored : N) (pushed holes : list N) (upd : list (N * N)) : rstate :=
  {| r_sz := sz; r_native := native; r_xo := MMAP_CROSSOVER_BYTES; r_disk := disk; r_stored := stored;
     r_pushed := pushed; r_holes := holes; r_upd := upd |}.

(* after a rollback that leaves stored_len above the on-disk length the lean clone and VecReader read
   past the region: disk [10;11], stored_len 4, indices 2 and 3 in the overlay *)
Definition w_expanded : rstate := mk 8 true [10; 11] 4 [] [] [(2, 12); (3, 13)].
Theorem clone_after_rollback_refuted :
  wf w_expanded /\ region_len w_expanded = 48
  /\ run (ro_read_into w_expanded 0 4) = (RGarbage, [(32, 32)])
  /\ run (vr_try_get w_expanded 3) = (RGarbage, [(56, 8)]).
Proof. split; [reflexivity | vm_compute; auto]. Qed.
Example expanded_rw_example :
  wf w_expanded /\ run (read_into_at w_expanded 0 4) = (ROk [10; 11; 12; 13], [(32, 8); (40, 8)])
  /\ expected w_expanded 0 4 = [10; 11; 12; 13].
Proof. split; [reflexivity | vm_compute; auto]. Qed.
