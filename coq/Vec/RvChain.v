(* The unbounded commit / rollback proof for raw vectors (C04, C16).
   Ghost levels: one per retained snapshot, carrying the UNDERLYING values (also under deleted slots),
   the deleted set, the stamp and the lowest stored length a representative may have.  A change record
   is correct (`RecOK`) when it carries exactly what separates two adjacent levels.
   `K s a` ties model, reference and the chain of levels together; `Clean s`: nothing edited since the baseline.
   Levels and records do not mention the state: the region under an old record is overwritten by later commits, so
   "record i leads from state i to state i-1" could not be kept; what is kept is that ANY clean representative of a
   level is taken by the record to a clean representative of the level below (`undo_clean`).
   A commit or a rollback ends in a clean state and re-enters K through `K_clean`; the change directory is a stack.
   `reachable_not_expanded` (C03: a history without rollback keeps stored_len within the on-disk length) stands here
   because it needs `edit_frame`; it speaks of Inv and the model only, not of K. *)
From Anydb Require Import Common.Base Common.ListFacts Vec.RvBase Vec.RvChange Vec.RvChangeProofs
  Vec.RvModel Vec.RvFacts Vec.RvRollback Vec.RvSpec Vec.RvRollbackProofs Vec.RvRefine.

Local Arguments ns_mem : simpl never.
Local Arguments nm_get : simpl never.

Section AUX.
Context {T : Type}.
Lemma nm_get_insert_run (vals : list T) : forall start (m : nmap T) i,
  nm_get i (insert_run start vals m) =
  if (start <=? i) && (i <? start + len vals) then get vals (i - start) else nm_get i m.
Proof.
  induction vals as [|v t IH]; intros start m i; cbn [insert_run].
  - rewrite len_nil. destruct (N.leb_spec start i), (N.ltb_spec i (start + 0)); (lia || reflexivity).
  - rewrite IH, nm_get_insert, len_cons, get_cons, N.add_assoc. destruct (N.eqb_spec i start) as [->|Hne].
    + replace (start + 1 <=? start) with false by lia. replace (start <? start + 1 + len t) with true by lia.
      now rewrite N.leb_refl, N.sub_diag.
    + replace (start <=? i) with (start + 1 <=? i) by lia. destruct (N.leb_spec (start + 1) i); [|reflexivity].
      replace (i - start =? 0) with false by lia. now replace (i - start - 1) with (i - (start + 1)) by lia.
Qed.
Lemma NoDup_insert_run (vals : list T) : forall start (m : nmap T), NoDup (nm_keys m) -> NoDup (nm_keys (insert_run start vals m)).
Proof. induction vals; intros; cbn [insert_run]; auto. apply IHvals. now apply NoDup_keys_insert. Qed.

Lemma in_get {A} (l : list A) x : In x l -> exists n, get l n = Some x.
Proof. intros H. apply In_nth_error in H as [n Hn]. exists (N.of_nat n). now rewrite get_nth_error, Nat2N.id. Qed.
(* shadows ListFacts.get_combine, of which it is the case of two hits *)
Lemma get_combine {A B} (a : list A) (b : list B) n x y : get a n = Some x -> get b n = Some y -> get (combine a b) n = Some (x, y).
Proof. intros Ha Hb. now rewrite ListFacts.get_combine, Ha, Hb. Qed.
Lemma in_combine_get {A B} (a : list A) (b : list B) x y : In (x, y) (combine a b) -> exists n, get a n = Some x /\ get b n = Some y.
Proof.
  revert b; induction a as [|p a IH]; intros b H; destruct b as [|q b]; cbn [combine In] in H; try contradiction.
  destruct H as [[= -> ->]|H]; [exists 0; auto|]. destruct (IH _ H) as (n & H1 & H2). exists (n + 1).
  rewrite !get_cons. destruct (N.eqb_spec (n + 1) 0); [lia|]. now replace (n + 1 - 1) with n by lia.
Qed.

(* replaying the modified slots of a record: update_at on stored indices only inserts into `updated` *)
Fixpoint ins_all (mods : list (N * T)) (u : nmap T) : nmap T :=
  match mods with [] => u | (i, v) :: t => ins_all t (nm_insert i v u) end.
Lemma nm_get_ins_all mods : forall (u : nmap T) i,
  (exists v, In (i, v) mods /\ nm_get i (ins_all mods u) = Some v) \/
  (~ In i (map fst mods) /\ nm_get i (ins_all mods u) = nm_get i u).
Proof.
  induction mods as [|[j w] t IH]; intros u i; cbn [ins_all map In fst]; [right; auto|].
  destruct (IH (nm_insert j w u) i) as [(v & Hv & E)|[Hn E]]; [left; eauto|].
  rewrite nm_get_insert in E. destruct (N.eqb_spec i j) as [->|Hne]; [left; eauto|]. right. split; [intuition congruence|exact E].
Qed.
Lemma NoDup_ins_all mods : forall (u : nmap T), NoDup (nm_keys u) -> NoDup (nm_keys (ins_all mods u)).
Proof. induction mods as [|[j w] t IH]; intros u H; cbn [ins_all]; auto using NoDup_keys_insert. Qed.

Lemma apply_mods_eq (mods : list (N * T)) : forall (s : rv),
  (forall m, In m mods -> fst m < stored_len s) ->
  exists h, apply_mods mods s = (set_updated (ins_all mods (updated s)) (set_holes h s), Ok tt) /\ (holes s = [] -> h = []).
Proof.
  induction mods as [|[i v] t IH]; intros s H; cbn [apply_mods ins_all].
  - exists (holes s). now destruct s.
  - rewrite update_at_stored by (apply (H (i, v)); now left).
    destruct (IH (set_updated (nm_insert i v (updated s)) (set_holes (ns_remove i (holes s)) s))) as (h & -> & Hh);
      [intros m Hm; apply H; now right|].
    exists h. split; [reflexivity|]. intros E. apply Hh. cbn. now rewrite E.
Qed.
(* apply_mods_eq field by field *)
Lemma apply_mods_stored (mods : list (N * T)) : forall (s : rv),
  (forall m, In m mods -> fst m < stored_len s) ->
  exists s', apply_mods mods s = (s', Ok tt) /\
    stored_len s' = stored_len s /\ pushed s' = pushed s /\ reg s' = reg s /\
    hdrf s' = hdrf s /\ holef s' = holef s /\ prevf s' = prevf s /\
    (forall i, ~ In i (map fst mods) -> nm_get i (updated s') = nm_get i (updated s)) /\
    (forall i, In i (map fst mods) -> exists v, In (i, v) mods /\ nm_get i (updated s') = Some v) /\
    (holes s = [] -> holes s' = []).
Proof.
  intros s H. destruct (apply_mods_eq mods s H) as (h & -> & Hh). eexists. split; [reflexivity|]. rv_fields.
  do 6 (split; [reflexivity|]). split; [|split; [|exact Hh]]; intros i Hi;
    destruct (nm_get_ins_all mods (updated s) i) as [(v & Hv & E)|[Hn E]]; eauto; try tauto.
  exfalso. apply Hi, in_map_iff. now exists (i, v).
Qed.
Lemma apply_mods_NoDup (mods : list (N * T)) : forall (s : rv),
  (forall m, In m mods -> fst m < stored_len s) -> NoDup (nm_keys (updated s)) -> NoDup (nm_keys (updated (fst (apply_mods mods s)))).
Proof. intros s H Hd. destruct (apply_mods_eq mods s H) as (h & -> & _). now apply NoDup_ins_all. Qed.
End AUX.

Lemma nm_get_skip {A} (l1 l2 : list (N * A)) x : (forall p, In p l1 -> fst p <> x) -> nm_get x (l1 ++ l2) = nm_get x l2.
Proof.
  induction l1 as [|[k0 v] t IH]; intros H; [reflexivity|]. cbn [app]. unfold nm_get at 1. fold (nm_get x (t ++ l2)).
  destruct (N.eqb_spec x k0) as [->|].
  - exfalso. now apply (H (k0, v)); [left|].
  - apply IH. intros p Hp. apply H. now right.
Qed.
Lemma nm_get_none_all {A} (l : list (N * A)) x : (forall p, In p l -> fst p <> x) -> nm_get x l = None.
Proof. intros H. rewrite <- (app_nil_r l). rewrite nm_get_skip by exact H. reflexivity. Qed.
Lemma nm_get_head {A} (l : list (N * A)) x v : nm_get x ((x, v) :: l) = Some v.
Proof. unfold nm_get. now rewrite N.eqb_refl. Qed.

Lemma take_cons_pos {A} (n : N) (x : A) l : 0 < n -> take n (x :: l) = x :: take (n - 1) l.
Proof. intros H. unfold take. replace (N.to_nat n) with (Datatypes.S (N.to_nat (n - 1))) by lia. reflexivity. Qed.
Lemma drop_rev_take {A} (l : list A) m : drop (len l - m) (rev l) = rev (take m l).
Proof. exact (ListFacts.drop_rev_take l m). Qed.
Lemma cd_ins_append st b (l : list (N * list N)) : (forall p, In p l -> fst p < st) -> cd_ins st b l = l ++ [(st, b)].
Proof.
  induction l as [|[k0 w] t IH]; intros H; cbn [cd_ins app]; [reflexivity|].
  assert (Hk : k0 < st) by (apply (H (k0, w)); now left).
  destruct (N.ltb_spec st k0); [lia|]. destruct (N.eqb_spec st k0); [lia|]. f_equal. apply IH. intros p Hp. apply H. now right.
Qed.
Lemma filter_none {A} (f : A -> bool) l : (forall x, In x l -> f x = false) -> filter f l = [].
Proof. induction l; cbn; intros H; auto. rewrite H by now left. apply IHl. intros; apply H; now right. Qed.
Lemma Forall2_take {A B} (P : A -> B -> Prop) n l1 l2 : Forall2 P l1 l2 -> Forall2 P (take n l1) (take n l2).
Proof.
  unfold take. generalize (N.to_nat n) as m. intros m H. revert m. induction H; intros [|m]; cbn; constructor; auto.
Qed.

Section REFSIDE.
Context {T : Type}.
(* The history class of the unbounded theorems (`strict`, `agrees` below) is made of Props over any element type.
   RvFindings has the executable class over u64 (is_edit, next_edited, op_disciplined, disciplined, agree), which also
   admits plain write / flush / re-import / reset between commits and whose verdict is weaker (res_agree for equal
   results).  No lemma relates the two: `strict` asks valid_record at every commit, which is not a property of the
   shape of a history; RvChainEx shows it at the commits of two disciplined histories.  Inside the strict class every
   step that is not a commit or a rollback is an edit, so next_ed need not read its first argument. *)
Definition is_edit_op (o : @op T) : Prop :=
  match o with Push _ | Truncate _ | Update _ _ | Delete _ | Take _ | Fill _ => True | _ => False end.

Lemma edit_spec_frame (a : sv T) o : is_edit_op o ->
  let a' := fst (sstep a o) in sstamp a' = sstamp a /\ base a' = base a /\ committed a' = committed a /\ sk a' = sk a.
Proof.
  destruct o as [v|i| | | | | |i v|i|i|v|st|st| |st|st|st n|st off x]; cbn [is_edit_op]; try contradiction; intros _; cbn [sstep].
  - cbn; auto.
  - destruct (i <? slen a); cbn; auto.
  - destruct (i <? slen a); cbn; auto.
  - destruct (i <? slen a); cbn; auto.
  - destruct (get (contents a) i) as [[x|]|]; cbn; auto.
  - destruct (first_none (contents a) 0); cbn; auto.
Qed.

Fixpoint rolln (n : nat) (a : sv T) : sv T := match n with O => a | Datatypes.S m => rolln m (fst (sv_rollback a)) end.

Lemma iter_rollback_committed (n : nat) : forall (a : sv T), (n <= length (committed a))%nat ->
  length (committed (rolln n a)) = (length (committed a) - n)%nat.
Proof.
  induction n as [|n IH]; intros a Hn; cbn [rolln]; [lia|]. unfold sv_rollback in *.
  destruct (committed a) as [|Sn rest'] eqn:Ec; [cbn in Hn; lia|]. rewrite IH; cbn in *; lia.
Qed.
Lemma rolln_all (n : nat) : forall (a : sv T), length (committed a) = n -> committed (rolln n a) = [].
Proof.
  intros a <-. pose proof (iter_rollback_committed _ a (le_n _)) as H. rewrite Nat.sub_diag in H. now destruct (committed (rolln _ a)).
Qed.

Definition next_ed (edited : bool) (o : @op T) : bool :=
  match o with Commit _ | Rollback | RollbackBefore _ => false | _ => true end.
Fixpoint final_ed (edited : bool) (h : list (@op T)) : bool :=
  match h with [] => edited | o :: t => final_ed (next_ed edited o) t end.

Fixpoint n_commits (h : list (@op T)) : nat :=
  match h with [] => O | Commit _ :: t => Datatypes.S (n_commits t) | _ :: t => n_commits t end.
Definition no_rollbacks (h : list (@op T)) : Prop :=
  Forall (fun o => match o with Rollback | RollbackBefore _ | Reset => False | _ => True end) h.

Lemma committed_count : forall h (a : sv T), no_rollbacks h -> 0 < sk a -> (length (committed a) <= N.to_nat (sk a))%nat ->
  length (committed (srun a h)) = Nat.min (N.to_nat (sk (srun a h))) (length (committed a) + n_commits h) /\ sk (srun a h) = sk a.
Proof.
  induction h as [|o t IH]; intros a Hn Hk Hl; cbn [srun n_commits]; [split; [lia|reflexivity]|].
  inversion Hn as [|? ? Ho Ht]; subst.
  (* a commit pushes one snapshot and keeps the newest sk; no other step touches them *)
  assert (Hs : sk (fst (sstep a o)) = sk a /\ length (committed (fst (sstep a o))) =
               match o with Commit _ => Nat.min (N.to_nat (sk a)) (S (length (committed a))) | _ => length (committed a) end).
  { pose proof (edit_spec_frame a o) as Ef.
    destruct o; try contradiction; try (destruct (Ef I) as (_ & _ & -> & ->); split; reflexivity);
      cbn [sstep]; try (split; reflexivity).
    destruct (N.eqb_spec (sk a) 0); [lia|]. cbn [fst sk committed]. split; [reflexivity|].
    unfold take. rewrite firstn_length. cbn [length]. lia. }
  destruct Hs as [Hs1 Hs2]. destruct (IH (fst (sstep a o))) as [I1 I2]; [exact Ht|now rewrite Hs1|rewrite Hs1; destruct o; rewrite Hs2; lia|].
  rewrite I1, I2, Hs1. split; [destruct o; rewrite Hs2; lia|reflexivity].
Qed.
End REFSIDE.

Section CHAIN.
Context {T : Type} (tsize : N) (enc : T -> list N) (dec : list N -> T).
Notation rv := (@rv T).
Notation view_at := (view_at tsize dec).
Notation phys_read := (phys_read tsize dec).
Notation uopt := (uopt tsize dec).
Notation R := (@R T tsize dec).

Record ghost := mkG { gU : list T; gH : nset; gst : N; glo : N }.
Definition g_wf (g : ghost) : Prop := forall i, ns_mem i (gH g) = true -> i < len (gU g).
Definition mview (g : ghost) (i : N) : option T := if ns_mem i (gH g) then None else get (gU g) i.
Definition g_snap (g : ghost) (S : snapshot T) : Prop :=
  sn_stamp S = gst g /\ len (sn_contents S) = len (gU g) /\
  forall i, i < len (gU g) -> get (sn_contents S) i = Some (mview g i).

(* the committed baseline of a state: prev_updated over the disk.  Proofs name the clauses of BaseRep, in order,
   Bpp Bpsl Bval Bhol Blo Bkeys Bwf Bst *)
Definition pu (s : rv) (i : N) : T := match nm_get i (prev_updated s) with Some v => v | None => phys_read s i end.
Definition BaseRep (s : rv) (g : ghost) : Prop :=
  prev_pushed s = [] /\ prev_stored_len s = len (gU g) /\
  (forall i, i < len (gU g) -> get (gU g) i = Some (pu s i)) /\
  (forall i, ns_mem i (prev_holes s) = ns_mem i (gH g)) /\
  glo g <= prev_stored_len s /\
  (forall i, nm_get i (prev_updated s) <> None -> i < prev_stored_len s) /\
  g_wf g /\ stamp s = gst g.
Lemma BaseRep_stamp (s : rv) g : BaseRep s g -> stamp s = gst g.
Proof. intros (_ & _ & _ & _ & _ & _ & _ & H). exact H. Qed.
Definition Clean (s : rv) : Prop :=
  prev_stored_len s = stored_len s /\ pushed s = [] /\ prev_holes s = holes s /\ prev_updated s = updated s.

(* after a rollback made the vector longer than the region, the part of the baseline behind the region's end is
   in prev_updated (the record of the truncating commit carried it); edits never touch prev_updated *)
Definition Over (s : rv) : Prop :=
  forall i, real_stored_len s <= i -> i < stored_len s -> nm_get i (prev_updated s) <> None.

(* a record that leads from level gc back to level gp; clauses, in order: Rst Rpsl Rpp Rtl Rlo Rtrunc Rml Rmod Rhol Rsame
   Rgplo Rgpwf *)
Definition RecOK (r : @crecord T) (gp gc : ghost) : Prop :=
  r_stamp r = gst gp /\ r_prev_stored_len r = len (gU gp) /\ r_prev_pushed r = [] /\
  len (r_trunc r) <= r_prev_stored_len r /\ glo gc = r_prev_stored_len r - len (r_trunc r) /\
  (forall j, j < len (r_trunc r) -> get (r_trunc r) j = get (gU gp) (glo gc + j)) /\
  len (r_mod_idx r) = len (r_mod_vals r) /\
  (forall n i, get (r_mod_idx r) n = Some i -> i < r_prev_stored_len r /\ get (r_mod_vals r) n = get (gU gp) i) /\
  (forall i, ns_mem i (ns_of_list (r_prev_holes r)) = ns_mem i (gH gp)) /\
  (forall i, i < glo gc -> ~ In i (r_mod_idx r) -> get (gU gc) i = get (gU gp) i) /\
  glo gp <= r_prev_stored_len r /\ g_wf gp.

Definition final_of (s1 : rv) : rv := save_rollback_state s1.

(* Fd: the files of the chain, newest first; file i leads from level i back to level i+1 *)
Fixpoint chain_ok (g0 : ghost) (rest : list ghost) (Fd : list (N * list N)) : Prop :=
  match rest, Fd with
  | [], [] => True
  | g1 :: rest', (st, bytes) :: Fd' =>
    st = gst g0 /\ gst g1 < gst g0 /\
    (exists r, bytes = serialize_record enc r /\ valid_record enc r /\ RecOK r g1 g0) /\
    chain_ok g1 rest' Fd'
  | _, _ => False
  end.
(* the directory: the chain's files in ascending order, then files above the current stamp (left by
   rolled-back commits; the next commit removes them, no rollback ever reads them) *)
Definition Dir (s : rv) (g0 : ghost) (rest : list ghost) : Prop :=
  match changes s with
  | None => rest = []
  | Some l => exists Fd fut, chain_ok g0 rest Fd /\ l = rev Fd ++ fut /\ forall p, In p fut -> stamp s < fst p
  end.

(* K does not contain Inv: the rollback theorems hold from any state in K, and Inv is carried beside it (`Inv s -> Inv s'`).
   stored_len s <= prev_stored_len s: edits only shorten the stored part, so build_record's saturating psl - sl is exact. *)
Definition K (s : rv) (a : sv T) : Prop :=
  R s a /\ sstamp a = sn_stamp (base a) /\ k s = sk a /\ 0 < k s /\ len (committed a) <= sk a /\
  stored_len s <= prev_stored_len s /\ Over s /\
  exists g0 rest, g_snap g0 (base a) /\ Forall2 g_snap rest (committed a) /\ BaseRep s g0 /\ Dir s g0 rest.

(* The history class of C04_continuation (retention > 0): edits, commits with increasing stamps whose record fits
   64 bits, rollbacks and rollback_before from committed states — also those that LENGTHEN the vector beyond its region
   (they undo a truncating commit; the next write() extends the region to stored_len first).  Plain write / flush /
   re-import / reset between commits are not in this class (they are in C03's, and in the bounded C04 statement). *)
Fixpoint strict (edited : bool) (s : rv) (a : sv T) (h : list (@op T)) : Prop :=
  match h with
  | [] => True
  | o :: t =>
    (match o with
     | Commit st => sstamp a < st /\ valid_record enc (fst (build_record tsize dec s))
     | Rollback => edited = false
     | RollbackBefore _ => edited = false /\ changes s <> None
     | Push _ | Truncate _ | Update _ _ | Delete _ | Take _ | Fill _ => True
     | _ => False
     end) /\ strict (next_ed edited o) (fst (step tsize enc dec s o)) (fst (sstep a o)) t
  end.
Fixpoint agrees (s : rv) (a : sv T) (h : list (@op T)) : Prop :=
  match h with
  | [] => True
  | o :: t =>
    snd (step tsize enc dec s o) = snd (sstep a o) /\
    view tsize dec (fst (step tsize enc dec s o)) = contents (fst (sstep a o)) /\
    stamp (fst (step tsize enc dec s o)) = sstamp (fst (sstep a o)) /\
    agrees (fst (step tsize enc dec s o)) (fst (sstep a o)) t
  end.
Notation step := (step tsize enc dec).

Lemma clean_view (s : rv) g : BaseRep s g -> Clean s ->
  rlen s = len (gU g) /\ forall i, i < len (gU g) -> view_at s i = mview g i.
Proof.
  intros (Bpp & Bpsl & Bval & Bhol & _) (C1 & C2 & C3 & C4). split; [unfold rlen; rewrite C2, len_nil, <- C1, Bpsl; lia|].
  intros i Hi. rewrite view_at_uopt. unfold mview. rewrite <- C3, Bhol. destruct (ns_mem i (gH g)); [reflexivity|].
  rewrite (Bval i Hi). unfold RvRefine.uopt, pu. rewrite <- C1, Bpsl, C4. destruct (N.leb_spec (len (gU g)) i); [lia|].
  now destruct (nm_get i (updated s)).
Qed.
Lemma clean_Inv (s : rv) g : BaseRep s g -> Clean s -> Over s -> NoDup (nm_keys (updated s)) ->
  (has_stored_holes s = true <-> holes_region s <> None) -> (hdr_modified s = false -> hdr_disk s = stamp s) -> Inv s.
Proof.
  intros (Bpp & Bpsl & Bval & Bhol & Blo & Bkeys & Bwf & Bst) (C1 & C2 & C3 & C4) Ho Hd H5 H6. unfold RvRefine.Inv. inv_split; auto.
  - intros i A1 A2. left. rewrite <- C4. now apply Ho.
  - intros i Hi. rewrite <- C1. apply Bkeys. now rewrite C4.
  - intros i Hi. rewrite <- C3, Bhol in Hi. apply Bwf in Hi. unfold rlen. rewrite <- C1, Bpsl. lia.
Qed.

(* K at a clean state: the model represents the top level g0 and the reference stands on its base snapshot S (the
   shape of the conclusion); R follows.  Every state a commit, a rollback or rv_init produces enters K through here;
   only an edit needs R from outside. *)
Lemma K_clean (s : rv) S cs kk g0 rest :
  BaseRep s g0 -> Clean s -> Over s -> Dir s g0 rest -> g_snap g0 S -> Forall2 g_snap rest cs ->
  k s = kk -> 0 < kk -> len cs <= kk ->
  K s (mkSv (sn_contents S) (sn_stamp S) S cs kk).
Proof.
  intros HB HC Ho HD Hg Hr <- Hkp Hl. destruct (clean_view s g0 HB HC) as [L V].
  pose proof Hg as (Gs & Gl & Gv). pose proof (BaseRep_stamp _ _ HB) as Bst. pose proof HC as (C1 & _).
  unfold K. cbn [contents sstamp base committed sk].
  split; [|do 4 (split; [auto|]); split; [lia|split; [exact Ho|eauto 6]]].
  unfold RvRefine.R, slen. cbn [contents sstamp]. rewrite L. split; [congruence|]. split; [exact Gl|].
  intros i Hi. rewrite V by exact Hi. now apply Gv.
Qed.

Lemma chain_ok_len g0 rest Fd : chain_ok g0 rest Fd -> length Fd = length rest.
Proof.
  revert g0 Fd; induction rest as [|g1 rest IH]; intros g0 [|[st b] Fd]; cbn [chain_ok]; try (now intros []).
  intros (_ & _ & _ & H). cbn. f_equal. eapply IH; eauto.
Qed.
Lemma chain_ok_stamps g0 rest Fd : chain_ok g0 rest Fd -> forall p, In p Fd -> fst p <= gst g0.
Proof.
  revert g0 Fd; induction rest as [|g1 rest IH]; intros g0 [|[st b] Fd]; cbn [chain_ok]; try (now intros []).
  intros (-> & Hlt & _ & H) p [<-|Hp]; [apply N.le_refl|]. specialize (IH _ _ H p Hp). eapply N.le_trans; [exact IH|]. now apply N.lt_le_incl.
Qed.
Lemma chain_ok_tail_lt g0 g1 rest st b Fd : chain_ok g0 (g1 :: rest) ((st, b) :: Fd) -> forall p, In p Fd -> fst p < st.
Proof.
  cbn [chain_ok]. intros (-> & Hlt & _ & H) p Hp. eapply N.le_lt_trans; [exact (chain_ok_stamps _ _ _ H p Hp)|exact Hlt].
Qed.
Lemma chain_ok_take n : forall g0 rest Fd, chain_ok g0 rest Fd -> chain_ok g0 (take n rest) (take n Fd).
Proof.
  unfold take. generalize (N.to_nat n) as m. induction m; intros g0 rest Fd H; [destruct rest, Fd; cbn; auto|].
  destruct rest as [|g1 rest], Fd as [|[st b] Fd]; cbn [firstn chain_ok] in H |- *; try exact H.
  destruct H as (H1 & H2 & H3 & H4). repeat split; auto.
Qed.

Lemma in_all_keys (s : rv) i : In i (all_keys s) <-> In i (nm_keys (updated s)) \/ In i (nm_keys (prev_updated s)).
Proof.
  unfold all_keys. rewrite <- ns_mem_In. fold (ns_of_list (nm_keys (updated s) ++ nm_keys (prev_updated s))).
  rewrite ns_mem_of_list, ns_mem_In, in_app_iff. reflexivity.
Qed.

(* the level a state shows: its underlying values (zero bytes under a deleted slot that has none) and its deleted set *)
Definition gof (s : rv) (st lo : N) : ghost :=
  mkG (map (fun i => match uopt s i with Some v => v | None => zero_val tsize dec end) (seqN 0 (N.to_nat (rlen s))))
      (holes s) st lo.
Lemma gof_len s st lo : len (gU (gof s st lo)) = rlen s.
Proof. unfold gof. cbn [gU]. rewrite len_map, len_seqN. lia. Qed.
Lemma gof_get s st lo i : i < rlen s -> get (gU (gof s st lo)) i = uopt s i.
Proof.
  intros Hi. unfold gof. cbn [gU]. rewrite get_map_seqN, N2Nat.id, N.add_0_l.
  destruct (N.ltb_spec i (rlen s)); [|lia]. destruct (uopt_some tsize dec s i Hi) as [x ->]. reflexivity.
Qed.
Lemma fst_prev_or_disk (s : rv) i : fst (prev_or_disk tsize dec s i) = pu s i.
Proof. unfold prev_or_disk, pu. destruct (nm_get i (prev_updated s)); reflexivity. Qed.

Lemma normal_rep (s : rv) lo : Normal s -> (forall i, ns_mem i (holes s) = true -> i < rlen s) -> lo <= stored_len s ->
  BaseRep (rebase s) (gof s (stamp s) lo) /\ Clean (rebase s) /\ Over (rebase s).
Proof.
  intros HN Hh Hlo. pose proof (Normal_stored_len s HN) as Sl. destruct HN as (N1 & N2 & N3 & _).
  split; [|split; [unfold Clean, rebase; rv_fields; auto|]].
  - unfold BaseRep, rebase. rewrite gof_len. rv_fields. cbn [gof gH glo gst].
    split; [reflexivity|]. split; [exact Sl|]. split.
    { intros i Hi. rewrite gof_get by exact Hi. unfold RvRefine.uopt, pu, RvModel.phys_read. rv_fields.
      rewrite N2, Sl. destruct (N.leb_spec (rlen s) i); [lia|]. reflexivity. }
    split; [reflexivity|]. split; [exact Hlo|]. split; [intros i Hi; cbv [nm_get] in Hi; congruence|].
    split; [|reflexivity]. unfold g_wf. intros i Hi. rewrite gof_len. now apply Hh.
  - unfold Over, rebase, real_stored_len in *. rv_fields. intros i A1 A2. lia.
Qed.

(* gc: the level the commit establishes *)
Lemma build_record_ok (s : rv) g0 gc :
  BaseRep s g0 -> (forall i, nm_get i (updated s) <> None -> i < stored_len s) -> stored_len s <= prev_stored_len s ->
  glo gc = stored_len s ->
  (forall i, i < stored_len s -> nm_get i (updated s) = None -> nm_get i (prev_updated s) = None ->
     get (gU gc) i = Some (phys_read s i)) ->
  RecOK (fst (build_record tsize dec s)) g0 gc.
Proof.
  intros (Bpp & Bpsl & Bval & Bhol & Blo & Bkeys & Bwf & Bst) I2 Hsl Hglo Hgc. unfold build_record. cbn [fst].
  set (psl := prev_stored_len s) in *. set (sl := stored_len s) in *.
  unfold RecOK. cbn [r_stamp r_prev_stored_len r_prev_pushed r_trunc r_mod_idx r_mod_vals r_prev_holes]. rewrite Hglo.
  assert (Ltr : len (map fst (map (prev_or_disk tsize dec s) (seqN sl (N.to_nat (psl - sl))))) = psl - sl)
    by (rewrite !len_map, len_seqN; lia).
  refine (conj Bst (conj Bpsl (conj Bpp (conj ?[Rtl] (conj ?[Rlo] (conj ?[Rtrunc] (conj ?[Rml] (conj ?[Rmod] (conj ?[Rhol]
            (conj ?[Rsame] (conj Blo Bwf))))))))))).
  [Rtl]: { rewrite Ltr; lia. }
  [Rlo]: { rewrite Ltr; lia. }
  [Rtrunc]: { intros j Hj. rewrite Ltr in Hj. rewrite map_map, get_map_seqN.
    destruct (N.ltb_spec j (N.of_nat (N.to_nat (psl - sl)))); [|lia]. rewrite fst_prev_or_disk. symmetry. apply Bval. lia. }
  [Rml]: { now rewrite !len_map. }
  [Rmod]: { intros n i Hn. assert (Hin : In i (all_keys s)) by (eapply get_in; eauto).
    assert (Hi : i < psl).
    { apply in_all_keys in Hin as [Hin|Hin]; apply nm_get_keys in Hin; [specialize (I2 i Hin); lia|exact (Bkeys i Hin)]. }
    split; [exact Hi|]. rewrite map_map, get_map, Hn. cbn [option_map]. rewrite fst_prev_or_disk. symmetry. apply Bval. lia. }
  [Rhol]: { intros i; rewrite ns_mem_of_list; apply Bhol. }
  [Rsame]: { intros i Hi Hnin. rewrite Bval by lia. unfold pu.
    assert (Hu : nm_get i (updated s) = None).
    { destruct (nm_get i (updated s)) eqn:Eg; auto. exfalso. apply Hnin, in_all_keys. left. apply nm_get_keys. congruence. }
    assert (Hp : nm_get i (prev_updated s) = None).
    { destruct (nm_get i (prev_updated s)) eqn:Eg; auto. exfalso. apply Hnin, in_all_keys. right. apply nm_get_keys. congruence. }
    rewrite Hp. apply Hgc; auto. }
Qed.

(* the directory as a stack of records; a popped file stays behind as a file above the stamp *)
Lemma dir_empty (s : rv) g0 : Dir s g0 [] -> read_change_file (changes s) (stamp s) = Err EIO.
Proof.
  unfold Dir, read_change_file. destruct (changes s) as [l|]; [|reflexivity]. intros (Fd & fut & Hch & -> & Hfut).
  destruct Fd; [|destruct p; contradiction]. cbn [rev app].
  rewrite nm_get_none_all; [reflexivity|]. intros p Hp. specialize (Hfut p Hp). lia.
Qed.
Lemma dir_pop (s : rv) g0 g1 rest : Dir s g0 (g1 :: rest) -> stamp s = gst g0 ->
  exists r, read_change_file (changes s) (stamp s) = Ok (serialize_record enc r) /\ valid_record enc r /\ RecOK r g1 g0 /\
    forall s' : rv, changes s' = changes s -> stamp s' = gst g1 -> Dir s' g1 rest.
Proof.
  unfold Dir, read_change_file. intros HD Bst. destruct (changes s) as [l|]; [|discriminate].
  destruct HD as (Fd & fut & Hch & -> & Hfut). destruct Fd as [|[st bytes] Fd']; [contradiction|].
  pose proof Hch as Hch0. cbn [chain_ok] in Hch. destruct Hch as (-> & Hlt & (r & -> & Hv & Hrec) & Hch').
  (* the directory is rev Fd' ++ [top] ++ fut: every file before the top one is older *)
  exists r. cbn [rev]. rewrite <- app_assoc, nm_get_skip.
  2:{ intros p Hp. apply in_rev in Hp. pose proof (chain_ok_tail_lt _ _ _ _ _ _ Hch0 p Hp). lia. }
  cbn [app]. rewrite Bst, nm_get_head. do 3 (split; [auto|]). intros s' -> St'.
  exists Fd', ((gst g0, serialize_record enc r) :: fut).
  split; [exact Hch'|]. split; [reflexivity|]. rewrite St'.
  intros p [<-|Hp]; [cbn; lia|]. specialize (Hfut p Hp). lia.
Qed.

Lemma dir_after_commit (s s3 : rv) g0 rest gnew r st :
  Dir s g0 rest -> stamp s = gst g0 -> gst g0 < st -> gst gnew = st -> 0 < k s ->
  RecOK r g0 gnew -> valid_record enc r ->
  changes s3 = save_change_file (changes s) (k s) (stamp s) st (serialize_record enc r) -> stamp s3 = st ->
  Dir s3 gnew (take (k s) (g0 :: rest)).
Proof.
  intros HD Hs Hlt Hg Hk Hrec Hv Hch Hst3. unfold Dir in *. rewrite Hch. unfold save_change_file.
  rewrite take_cons_pos by exact Hk.
  (* no directory yet is an empty one *)
  assert (HD' : exists Fd fut, chain_ok g0 rest Fd /\ match changes s with None => [] | Some l => l end = rev Fd ++ fut /\
                               forall p, In p fut -> stamp s < fst p).
  { destruct (changes s); [exact HD|]. subst rest. exists [], []. repeat split. intros p []. }
  destruct HD' as (Fd & fut & Hc & -> & Hfut).
  assert (Hf : filter (fun p => (fst p <? st) && (fst p <=? stamp s)) (rev Fd ++ fut) = rev Fd).
  { rewrite filter_app, filter_all_id, filter_none, app_nil_r; auto.
    - intros p Hp. specialize (Hfut p Hp). destruct (N.leb_spec (fst p) (stamp s)); [lia|]. apply andb_false_r.
    - intros p Hp. apply in_rev in Hp. pose proof (chain_ok_stamps _ _ _ Hc p Hp).
      destruct (N.ltb_spec (fst p) st); [|lia]. destruct (N.leb_spec (fst p) (stamp s)); [reflexivity|lia]. }
  rewrite Hf. replace (len (rev Fd)) with (len Fd) by (unfold len; now rewrite rev_length).
  rewrite drop_rev_take. rewrite cd_ins_append.
  2:{ intros p Hp. apply in_rev, in_take in Hp. pose proof (chain_ok_stamps _ _ _ Hc p Hp). lia. }
  exists ((st, serialize_record enc r) :: take (k s - 1) Fd), []. split.
  - cbn [chain_ok]. split; [congruence|]. split; [lia|]. split; [exists r; auto|]. now apply chain_ok_take.
  - split; [cbn [rev]; now rewrite app_nil_r|]. intros p [].
Qed.

Lemma fst_serialize (s : rv) : fst (serialize_raw_changes tsize enc dec s) = serialize_record enc (fst (build_record tsize dec s)).
Proof. unfold serialize_raw_changes. destruct (build_record tsize dec s). reflexivity. Qed.

(* RvRefine.commit_recording_wrote, which is what proofs use, with `rebase` and `Wrote` written out *)
Lemma commit_shape (s : rv) st : Inv s -> k s <> 0 ->
  exists s2, rv_commit tsize enc dec st s =
             (set_prev_updated [] (set_prev_holes (holes s2) (set_prev_pushed [] (set_prev_stored_len (stored_len s2) s2))), Ok tt) /\
    Inv s2 /\ Normal s2 /\ rlen s2 = rlen s /\ holes s2 = holes s /\ stamp s2 = st /\ k s2 = k s /\
    changes s2 = save_change_file (changes s) (k s) (stamp s) st (fst (serialize_raw_changes tsize enc dec s)) /\
    (forall i, i < rlen s -> backed s i -> uopt s2 i = uopt s i).
Proof.
  intros HI Hk. destruct (commit_recording_wrote tsize enc dec s st HI Hk) as (s2 & E & St & K2 & Ch & HI2 & HN & L & Hh & U).
  exists s2. auto 10.
Qed.

Lemma update_at_frame i v (s : rv) :
  let s' := fst (rv_update_at i v s) in
  reg s' = reg s /\ prevf s' = prevf s /\ stamp s' = stamp s /\ stored_len s' <= stored_len s.
Proof.
  cbv zeta. unfold rv_update_at. rewrite !rm_hole_eq.
  destruct (stored_len s <=? i); [destruct (get (pushed s) (i - stored_len s))|]; repeat split; apply N.le_refl.
Qed.
Lemma edit_frame (s : rv) o : is_edit_op o ->
  let s' := fst (step s o) in
  reg s' = reg s /\ prevf s' = prevf s /\ stamp s' = stamp s /\ stored_len s' <= stored_len s.
Proof.
  destruct o as [v|i| | | | | |i v|i|i|v|st|st| |st|st|st n|st off x]; cbn [is_edit_op]; try contradiction; intros _;
    cbn [RvRollback.step].
  - repeat split. apply N.le_refl.
  - cbn [fst]. rewrite rv_truncate_eq. repeat split. apply N.le_min_r.
  - pose proof (update_at_frame i v s) as H. now destruct (rv_update_at i v s).
  - cbn [fst]. unfold rv_delete_at. destruct (i <? rlen s); [rewrite unchecked_delete_at_eq|]; repeat split; apply N.le_refl.
  - unfold rv_take_at. destruct (get_any_or_read_at tsize dec s i) as [[x|] n]; cbn [fst]; [rewrite unchecked_delete_at_eq|];
      repeat split; apply N.le_refl.
  - unfold rv_fill. destruct (ns_min (holes s)) as [h|]; [|repeat split; apply N.le_refl].
    pose proof (update_at_frame h v (set_holes (ns_remove h (holes s)) s)) as H.
    now destruct (rv_update_at h v _) as [s2 [| |]].
Qed.

Theorem edit_step (s : rv) a o : K s a -> Inv s -> is_edit_op o ->
  K (fst (step s o)) (fst (sstep a o)) /\ Inv (fst (step s o)) /\ res_rel o (snd (step s o)) (snd (sstep a o)).
Proof.
  intros (HR & Hst & Hk & Hkp & Hlen & Hsl & Hov & g0 & rest & Hg0 & Hgr & HB & HD) HI He.
  assert (Hp : plain_op o) by (destruct o; cbn in *; auto).
  destruct (step_refines tsize enc dec s a o HI HR Hp) as (HI' & HR' & Hres).
  destruct (edit_frame s o He) as (Fr & Fp & Fs & Fl). destruct (edit_spec_frame a o He) as (E1 & E2 & E3 & E4).
  unfold prevf in Fp. injection Fp as P1 P2 P3 P4 P5 P6.
  split; [|split; [exact HI'|exact Hres]].
  unfold K. rewrite E1, E2, E3, E4, P2, P4. split; [exact HR'|]. split; [exact Hst|]. split; [exact Hk|]. split; [exact Hkp|].
  split; [exact Hlen|]. split; [lia|].
  split; [unfold Over, real_stored_len in *; rewrite Fr, P6; intros i A1 A2; apply Hov; [exact A1|lia]|].
  exists g0, rest. split; [exact Hg0|]. split; [exact Hgr|]. split.
  - destruct HB as (Bpp & Bpsl & Bval & Bhol & Blo & Bkeys & Bwf & Bst). unfold BaseRep, pu, RvModel.phys_read. rewrite P3, P4, P5, P6, Fr, Fs. auto 10.
  - unfold Dir in *. rewrite P1, Fs. exact HD.
Qed.

(* RvRefine.Inv allows stored_len above the on-disk length (the state a rollback of a truncating commit leaves); the
   histories of C03 (no rollback) never reach it, which is the plain case of R3 of DESIGN.md B.1 *)
Lemma plain_step_not_expanded (s : rv) o : Inv s -> stored_len s <= real_stored_len s -> plain_op o ->
  stored_len (fst (step s o)) <= real_stored_len (fst (step s o)).
Proof.
  intros HI Hle Hp.
  assert (Ed : is_edit_op o -> stored_len (fst (step s o)) <= real_stored_len (fst (step s o))).
  { intros He. destruct (edit_frame s o He) as (Fr & _ & _ & Fl). unfold real_stored_len in *. rewrite Fr. lia. }
  assert (Fa : forall f st, stored_len (fault_file f st s) <= real_stored_len (fault_file f st s)).
  { intros f st. pose proof (fault_file_core f st s) as [= Hr Hs _ _ _ _ _ _ _ _]. unfold real_stored_len in *. now rewrite Hr, Hs. }
  assert (No : forall s' : rv, Wrote tsize dec s s' -> stored_len s' <= real_stored_len s').
  { intros s' W. destruct (Wrote_normal tsize dec s s' W) as (_ & _ & -> & _). apply N.le_refl. }
  destruct (write_wrote tsize dec s HI) as (b & sw & Ew & _ & _ & Ww).
  destruct o as [v|i| | | | | |i v|i|i|v|st|st| |st|st|st n|st off x]; cbn [plain_op] in Hp; try contradiction;
    try (apply Ed; exact I); cbn [RvRollback.step]; try apply Fa.
  (* left: Write, Flush, Reset, Reimport (re-import of a written state has stored_len = on-disk length), Commit, StampedWrite *)
  - rewrite Ew. now apply No.
  - rewrite Ew. now apply No.
  - cbn [fst]. destruct (reset_refines tsize dec s 0 HI) as (_ & _ & ->). apply N.le_0_l.
  - rewrite Ew. apply N.le_refl.
  - destruct (commit_ok tsize enc dec s st HI) as (s' & -> & _ & W). now apply No.
  - destruct (stamped_write_wrote tsize dec s st HI) as (s' & -> & _ & _ & W). now apply No.
Qed.

Theorem run_not_expanded h : forall (s : rv), Inv s -> stored_len s <= real_stored_len s -> Forall (@plain_op T) h ->
  stored_len (run tsize enc dec s h) <= real_stored_len (run tsize enc dec s h).
Proof.
  induction h as [|o t IH]; intros s HI Hle Hp; cbn [RvRollback.run]; [exact Hle|].
  inversion Hp as [|? ? Ho Ht]; subst. apply IH; [|apply plain_step_not_expanded; auto|exact Ht].
  destruct (step_refines tsize enc dec s _ o HI (R_of_view tsize dec s) Ho) as (HI' & _). exact HI'.
Qed.
Theorem reachable_not_expanded k0 h : Forall (@plain_op T) h ->
  stored_len (run tsize enc dec (rv_init k0) h) <= real_stored_len (run tsize enc dec (rv_init k0) h).
Proof. intros Hp. apply run_not_expanded; [apply Inv_init|cbn; lia|exact Hp]. Qed.

Lemma K_init k0 : 0 < k0 -> K (rv_init k0) (sv_init k0) /\ Clean (rv_init k0).
Proof.
  intros Hk. split; [|now unfold Clean].
  apply (K_clean (rv_init k0) (mkSnap [] 0) [] k0 (mkG [] [] 0 0) []); try reflexivity; try exact Hk; try constructor;
    unfold BaseRep, g_snap, g_wf, Over; cbn; rewrite ?(@len_nil T), ?(@len_nil (snapshot T)); repeat split; intros; try lia.
  - now cbv [nm_get] in H.
  - now cbv [ns_mem existsb] in H.
Qed.

Lemma K_view (s : rv) a : K s a -> view tsize dec s = contents a /\ stamp s = sstamp a.
Proof. intros (HR & _). split; [symmetry; eapply R_view; eauto|]. symmetry. apply HR. Qed.

Lemma chain_stamps_spec : forall rest g0 Fd (Ss : list (snapshot T)) S0,
  chain_ok g0 rest Fd -> g_snap g0 S0 -> Forall2 g_snap rest Ss ->
  map fst Fd = map (@sn_stamp T) (firstn (length Ss) (S0 :: Ss)).
Proof.
  induction rest as [|g1 rest IH]; intros g0 Fd Ss S0 Hc Hg Hf.
  - inversion Hf; subst. destruct Fd; [reflexivity|destruct p; contradiction].
  - inversion Hf as [|? S1 ? Ss' Hg1 Hf']; subst. destruct Fd as [|[st b] Fd]; [contradiction|].
    cbn [chain_ok] in Hc. destruct Hc as (-> & _ & _ & Hc). cbn [length firstn map fst].
    f_equal; [destruct Hg as (-> & _); reflexivity|]. apply (IH g1 Fd Ss' S1 Hc Hg1 Hf').
Qed.

(* the files rollback_before walks through: the stamps of the retained snapshots, newest first *)
Lemma sel_of_K (s : rv) a l : K s a -> changes s = Some l ->
  rev (filter (fun f => f <=? stamp s) (map fst l)) = map (@sn_stamp T) (firstn (length (committed a)) (base a :: committed a)).
Proof.
  intros (HR & Hst & Hk & Hkp & Hlen & Hsl & Hov & g0 & rest & Hg0 & Hgr & HB & HD) Hl.
  unfold Dir in HD. rewrite Hl in HD. destruct HD as (Fd & fut & Hc & -> & Hfut).
  rewrite <- (chain_stamps_spec rest g0 Fd (committed a) (base a) Hc Hg0 Hgr).
  pose proof (BaseRep_stamp _ _ HB) as Bst.
  rewrite map_app, filter_app, filter_all_id, filter_none, app_nil_r.
  - rewrite map_rev, rev_involutive. reflexivity.
  - intros f Hf. apply in_map_iff in Hf as (p & <- & Hp). specialize (Hfut p Hp). destruct (N.leb_spec (fst p) (stamp s)); [lia|reflexivity].
  - intros f Hf. apply in_map_iff in Hf as (p & <- & Hp). apply in_rev in Hp. pose proof (chain_ok_stamps _ _ _ Hc p Hp).
    destruct (N.leb_spec (fst p) (stamp s)); [reflexivity|lia].
Qed.

Theorem rollback_before_nodir (s : rv) target : changes s = None -> rv_rollback_before tsize dec target s = (s, Err EIO).
Proof. intros H. unfold rv_rollback_before, find_rollback_files. rewrite H. reflexivity. Qed.

End CHAIN.

(* rollback reads records back: from here on, under the hypotheses of the codec round trip *)
Section ROUND_TRIP.
Context {T : Type} (tsize : N) (enc : T -> list N) (dec : list N -> T).
Hypothesis tsize_pos : 0 < tsize.
Hypothesis enc_len : forall v, len (enc v) = tsize.
Hypothesis dec_enc : forall v, dec (enc v) = v.
Notation rv := (@rv T).
Notation view_at := (view_at tsize dec).
Notation phys_read := (phys_read tsize dec).
Notation R := (@R T tsize dec).
Notation step := (step tsize enc dec).
Notation K := (K tsize enc dec).
Notation BaseRep := (BaseRep tsize dec).
Notation strict := (strict tsize enc dec).
Notation agrees := (agrees tsize enc dec).

(* the undo lemma: a correct record applied to a clean representative of level gc yields a clean representative
   of level gp; the conjuncts after `Inv s -> Inv s'` say what is kept of s when Inv s is not known (`undo_ok` below
   states them field by field; rollback_step reads the ones before) *)
Lemma undo_clean (s : rv) (r : @crecord T) gp gc :
  BaseRep s gc -> Clean s -> Over s -> RecOK r gp gc -> valid_record enc r ->
  exists s1, undo_changes tsize dec (serialize_record enc r) s = (s1, Ok tt) /\
    let s' := save_rollback_state s1 in
    BaseRep s' gp /\ Clean s' /\ Over s' /\ changes s' = changes s /\ k s' = k s /\ (Inv s -> Inv s') /\
    reg s' = reg s /\ has_stored_holes s' = has_stored_holes s /\ holes_region s' = holes_region s /\
    (hdr_modified s' = false -> hdr_disk s' = stamp s' \/ (hdr_modified s = false /\ hdr_disk s' = hdr_disk s /\ stamp s' = stamp s)) /\
    (NoDup (nm_keys (updated s)) -> NoDup (nm_keys (updated s'))).
Proof.
  intros (Bpp & Bpsl & Bval & Bhol & Blo & Bkeys & Bwf & Bst) (C1 & C2 & C3 & C4) Hov
         (Rst & Rpsl & Rpp & Rtl & Rlo & Rtrunc & Rml & Rmod & Rhol & Rsame & Rgplo & Rgpwf) Hv.
  unfold undo_changes. rewrite (parse_serialize tsize enc dec tsize_pos enc_len dec_enc r Hv).
  unfold project_record. cbn [rcd_base rcd_mods rcd_prev_holes cd_prev_stamp cd_prev_stored_len cd_trunc_start cd_trunc_vals cd_prev_pushed].
  set (psl := r_prev_stored_len r) in *. set (ts := psl - len (r_trunc r)) in *. set (mods := combine _ _).
  (* the two tests made before the first mutation pass: ts is glo gc (Rlo), which no representative of gc is shorter
     than (Blo), and every recorded index is below psl (Rmod) *)
  destruct (N.ltb_spec (stored_len s) ts); [lia|]. rewrite Rpp, len_nil, N.add_0_r.
  assert (Hmods : forall i v, In (i, v) mods -> i < psl /\ get (gU gp) i = Some v).
  { intros i v Hm. destruct (in_combine_get _ _ _ _ Hm) as (n & H1 & H2). destruct (Rmod n i H1). split; congruence. }
  destruct (existsb (fun m => psl <=? fst m) mods) eqn:E2.
  { apply existsb_exists in E2 as ([i v] & Hm & Hle). apply Hmods in Hm. cbn [fst] in Hle. lia. }
  (* the state is a chain of field updates over s; U5 is the final `updated` map *)
  rewrite dirty_if_eq, update_stamp_eq. set (U1 := if psl <? stored_len s then nm_below psl (updated s) else updated s).
  match goal with |- context [apply_mods _ ?x] => destruct (apply_mods_eq mods x) as (h5 & -> & _); [intros [i v] Hm; apply (Hmods i v Hm)|] end.
  cbv beta zeta. rewrite restore_holes_eq. eexists. split; [reflexivity|]. unfold save_rollback_state. rv_fields.
  set (U5 := ins_all mods (insert_run ts (r_trunc r) U1)).
  assert (G1 : forall i, i < psl -> nm_get i U1 = nm_get i (updated s))
    by (intros i Hi; unfold U1; destruct (psl <? stored_len s); [rewrite nm_get_below; now destruct (N.ltb_spec i psl); [|lia]|reflexivity]).
  assert (G1' : forall i, nm_get i U1 <> None -> i < psl).
  { intros i. unfold U1. destruct (N.ltb_spec psl (stored_len s)).
    - rewrite nm_get_below. now destruct (N.ltb_spec i psl).
    - intros Hi. rewrite <- C4 in Hi. apply Bkeys in Hi. lia. }
  (* a slot of U5 is a replayed modification, a truncated value, or an old entry *)
  assert (Look : forall i, (exists v, In (i, v) mods /\ nm_get i U5 = Some v) \/
            (~ In i (r_mod_idx r) /\ ts <= i < psl /\ nm_get i U5 = get (r_trunc r) (i - ts)) \/
            (~ In i (r_mod_idx r) /\ ~ ts <= i < psl /\ nm_get i U5 = nm_get i U1)).
  { intros i. destruct (nm_get_ins_all mods (insert_run ts (r_trunc r) U1) i) as [Hm|[Hn E]]; [now left|].
    right. unfold mods in Hn. rewrite map_fst_combine in Hn by (unfold len in Rml; lia). fold U5 in E.
    rewrite nm_get_insert_run in E.
    destruct (N.leb_spec ts i), (N.ltb_spec i (ts + len (r_trunc r))); cbn [andb] in E; [left|right..]; repeat split; auto; lia. }
  assert (Keys : forall i, nm_get i U5 <> None -> i < psl).
  { intros i Hi. destruct (Look i) as [(v & Hm & _)|[(_ & Hr & _)|(_ & _ & E)]]; [apply (Hmods i v Hm)|lia|]. apply G1'. congruence. }
  match goal with |- _ ?sf gp /\ _ => set (s' := sf) end.
  (* slot by slot the new baseline is gp, by the three conjuncts of RecOK that speak of values: a replayed slot holds
     gp's value (Rmod); so does a truncated one (Rtrunc: the truncated values are gp's from glo gc = ts on); any other slot
     below psl is below glo gc, where a slot the record does not mention is the same in gc and gp (Rsame), and there s
     shows gc (Bval; `updated` is prev_updated since s is clean) *)
  assert (HB' : BaseRep s' gp).
  { unfold RvChain.BaseRep, pu, RvModel.phys_read, s'. rv_fields. fold psl in Rpsl.
    split; [reflexivity|]. split; [exact Rpsl|]. split; [|auto 7]. intros i Hi. rewrite <- Rpsl in Hi.
    destruct (get_some (gU gp) i) as [x Hx]; [lia|]. rewrite Hx. f_equal.
    destruct (Look i) as [(v & Hm & ->)|[(_ & Hr & ->)|(Hni & Hr & ->)]].
    - destruct (Hmods i v Hm) as [_ Hg]. congruence.
    - rewrite Rtrunc, Rlo in * by lia. fold psl ts. replace (ts + (i - ts)) with i by lia. now rewrite Hx.
    - rewrite G1 by exact Hi. pose proof (Rsame i ltac:(fold psl ts in Rlo; lia) Hni) as Hun.
      rewrite Hx, Bval in Hun by (fold psl ts in Rlo; lia). injection Hun as <-. unfold pu, RvModel.phys_read. now rewrite C4. }
  assert (HC' : Clean s') by (unfold Clean, s'; rv_fields; auto).
  (* behind the region's end the overlay again has every slot: the record brought the first two kinds, s had the third *)
  assert (HO' : Over s').
  { intros i A1 A2. unfold real_stored_len, s' in *. rv_fields in A1. rv_fields in A2. rv_fields.
    destruct (Look i) as [(v & _ & ->)|[(_ & Hr & ->)|(_ & Hr & ->)]]; [discriminate| |].
    - destruct (get_some (r_trunc r) (i - ts)) as [x ->]; [lia|discriminate].
    - rewrite G1, <- C4 by exact A2. apply Hov; [exact A1|lia]. }
  split; [exact HB'|]. split; [exact HC'|]. split; [exact HO'|]. split; [reflexivity|]. split; [reflexivity|].
  assert (Nd : NoDup (nm_keys (updated s)) -> NoDup (nm_keys (updated s'))).
  { intros I3. unfold s'. rv_fields. apply NoDup_ins_all, NoDup_insert_run. unfold U1. destruct (psl <? stored_len s); [|exact I3].
    unfold nm_below. now apply NoDup_keys_filter. }
  assert (Hd : hdr_modified s' = false -> hdr_disk s' = stamp s' \/ (hdr_modified s = false /\ hdr_disk s' = hdr_disk s /\ stamp s' = stamp s)).
  { unfold s'. rv_fields. destruct (N.eqb_spec (stamp s) (r_stamp r)) as [<-|]; [auto|discriminate]. }
  split; [|unfold s' in *; rv_fields; auto].
  intros (_ & _ & Inodup & _ & Ihsh & Ihdr). apply (clean_Inv tsize dec s' gp HB' HC' HO' (Nd Inodup)).
  - unfold s'. rv_fields. exact Ihsh.
  - intros Hm. destruct (Hd Hm) as [E|(E1 & -> & ->)]; auto.
Qed.
Lemma undo_ok (s : rv) (r : @crecord T) gp gc :
  BaseRep s gc -> Clean s -> Over s -> RecOK r gp gc -> valid_record enc r ->
  exists s1, undo_changes tsize dec (serialize_record enc r) s = (s1, Ok tt) /\
    let s' := save_rollback_state s1 in
    BaseRep s' gp /\ Clean s' /\ rlen s' = len (gU gp) /\
    (forall i, i < len (gU gp) -> view_at s' i = mview gp i) /\
    changes s' = changes s /\ k s' = k s /\ reg s' = reg s /\ holef s' = holef s /\
    stored_len s' = len (gU gp) /\
    (hdr_modified s' = false -> hdr_disk s' = stamp s' \/ (hdr_modified s = false /\ hdr_disk s' = hdr_disk s /\ stamp s' = stamp s)) /\
    (NoDup (nm_keys (updated s)) -> NoDup (nm_keys (updated s'))) /\
    (forall i, nm_get i (updated s') <> None -> i < stored_len s') /\
    Over s'.
Proof.
  intros HB HC Ho Hr Hv.
  destruct (undo_clean s r gp gc HB HC Ho Hr Hv) as (s1 & E & HB' & HC' & Ov & Ch & K' & _ & Rg & H1 & H2 & Hd & Nd).
  exists s1. split; [exact E|]. cbv zeta in *. destruct (clean_view tsize dec _ gp HB' HC') as [L V].
  pose proof HB' as (_ & Bpsl & _ & _ & _ & Bkeys & _). pose proof HC' as (C1 & _ & _ & C4). rewrite C1 in Bpsl. rewrite C1, C4 in Bkeys.
  unfold holef. rewrite H1, H2. auto 14.
Qed.

(* C04_rollback_step *)
Theorem rollback_step (s : rv) a : K s a -> Clean s ->
  match committed a with
  | [] => rv_rollback tsize dec s = (s, Err EIO)
  | Sn :: rest' =>
    exists s', rv_rollback tsize dec s = (s', Ok tt) /\ K s' (fst (sv_rollback a)) /\ Clean s' /\
               view tsize dec s' = sn_contents Sn /\ stamp s' = sn_stamp Sn /\
               (Inv s -> Inv s')
  end.
Proof using tsize_pos enc_len dec_enc.
  intros (HR & Hst & Hk & Hkp & Hlen & Hsl & Hov & g0 & rest & Hg0 & Hgr & HB & HD) HC.
  pose proof (BaseRep_stamp tsize dec _ _ HB) as Bst. unfold rv_rollback.
  destruct (committed a) as [|Sn rest'] eqn:Ec; inversion Hgr as [|g1 Sn' rest_g rest_S Hg1 Hgr']; subst.
  - now rewrite (dir_empty enc s g0 HD).
  - destruct (dir_pop enc s g0 g1 rest_g HD Bst) as (r & -> & Hv & Hrec & HD').
    destruct (undo_clean s r g1 g0 HB HC Hov Hrec Hv) as (s1 & -> & HB' & HC' & Ov' & Ch' & K' & HI' & _).
    set (s' := save_rollback_state s1) in *. exists s'. split; [reflexivity|].
    pose proof (BaseRep_stamp tsize dec _ _ HB') as St'. unfold sv_rollback. rewrite Ec. cbn [fst].
    assert (HK' : K s' (mkSv (sn_contents Sn) (sn_stamp Sn) Sn rest' (sk a))).
    { apply (K_clean tsize enc dec s' Sn rest' (sk a) g1 rest_g); auto; try congruence; try lia.
      rewrite len_cons in Hlen. lia. }
    destruct (K_view tsize enc dec _ _ HK') as [V' S']. auto 8.
Qed.

(* C04_commit_step *)
Theorem commit_step (s : rv) a st : K s a -> Inv s -> sstamp a < st ->
  valid_record enc (fst (build_record tsize dec s)) ->
  let s' := fst (rv_commit tsize enc dec st s) in
  let a' := fst (sstep a (Commit st)) in
  snd (rv_commit tsize enc dec st s) = Ok tt /\ K s' a' /\ Inv s' /\ Clean s'.
Proof using tsize_pos.
  intros (HR & Hst & Hk & Hkp & Hlen & Hsl & Hov & g0 & rest & Hg0 & Hgr & HB & HD) HI Hlt Hv.
  pose proof (BaseRep_stamp tsize dec _ _ HB) as Bst. pose proof (Inv_upd s HI) as Iupd. pose proof HR as (R1 & R2 & R3).
  cbn [sstep]. destruct (N.eqb_spec (sk a) 0) as [|_]; [lia|].
  destruct (commit_recording_wrote tsize enc dec s st HI ltac:(lia)) as (s2 & Hc & St2 & K2 & Ch2 & W).
  pose proof (Wrote_view tsize dec s s2 HI W) as V2. destruct W as (HI2 & HN & L2 & Hh2 & U2).
  rewrite Hc. cbn [fst snd]. cbv zeta.
  assert (Sl2 : stored_len s2 = rlen s) by (rewrite <- L2; now apply Normal_stored_len).
  (* the new level is that of the state write() has left; its lowest admissible stored length is the stored length
     the commit started from, which is where the record's truncated values begin *)
  set (gnew := gof tsize dec s2 (stamp s2) (stored_len s)).
  destruct (normal_rep tsize dec s2 (stored_len s) HN (Inv_hol s2 HI2)) as (HB' & HC' & HO');
    [unfold rlen in Sl2; lia|]. fold gnew in HB'.
  assert (Hrec : RecOK (fst (build_record tsize dec s)) g0 gnew).
  { apply build_record_ok; auto. intros i Hi Hu Hp.
    assert (Hr : i < rlen s) by (unfold rlen; lia).
    unfold gnew. rewrite gof_get by (rewrite L2; exact Hr).
    (* a stored slot that neither map mentions is not in the record, so write() must have kept its value:
       it is on the disk, because behind the region's end prev_updated has every slot (Over) *)
    assert (Hreal : i < real_stored_len s).
    { destruct (N.lt_ge_cases i (real_stored_len s)) as [A|A]; [exact A|]. exfalso. exact (Hov i A Hi Hp). }
    rewrite U2 by (auto; left; exact Hreal). unfold RvRefine.uopt. destruct (N.leb_spec (stored_len s) i); [lia|]. now rewrite Hu. }
  split; [reflexivity|]. split; [|split; [exact (Inv_core s2 _ eq_refl HI2)|exact HC']].
  (* left of K_clean's premises: the directory, the snapshot of the new level, the older levels under the retention
     cut, and the retention bound *)
  apply (K_clean tsize enc dec _ (mkSnap (contents a) st) _ (sk a) gnew (take (sk a) (g0 :: rest)) HB' HC' HO');
    unfold rebase; rv_fields; try congruence; try lia.
  - rewrite <- Hk.
    refine (dir_after_commit enc s _ g0 rest gnew (fst (build_record tsize dec s)) st HD Bst ?[above] St2 Hkp Hrec Hv ?[saved] St2).
    [above]: { rewrite <- Bst, <- R1. exact Hlt. }
    [saved]: { rv_fields. now rewrite Ch2, fst_serialize. }
  - unfold g_snap, gnew, slen in R2 |- *. rewrite gof_len, L2. cbn [sn_stamp sn_contents gof gst gH]. split; [now symmetry|]. split; [exact R2|].
    intros i Hi. rewrite (R3 i Hi), <- V2, view_at_uopt by exact Hi. unfold mview. cbn [gof gH].
    destruct (ns_mem i (holes s2)); [reflexivity|]. now rewrite gof_get by (rewrite L2; exact Hi).
  - apply Forall2_take. constructor; auto.
  - rewrite len_take. lia.
Qed.

(* C04_chain, and with rollback_count below C16_count_from_any_state: as many successive rollbacks as there are retained snapshots succeed, each landing on the
   next snapshot; the one after that is refused with the vector unchanged *)
Theorem rollback_chain : forall (n : nat) (s : rv) a, K s a -> Clean s -> (n <= length (committed a))%nat ->
  exists s', rollbacks_ok tsize dec n s s' /\ K s' (rolln n a) /\ Clean s' /\
             view tsize dec s' = contents (rolln n a) /\
             stamp s' = sstamp (rolln n a).
Proof using tsize_pos enc_len dec_enc.
  induction n as [|n IH]; intros s a HK HC Hn.
  - exists s. cbn [rolln]. split; [constructor|]. split; [exact HK|]. split; [exact HC|]. exact (K_view tsize enc dec s a HK).
  - pose proof (rollback_step s a HK HC) as Hs. destruct (committed a) as [|Sn rest'] eqn:Ec; [cbn in Hn; lia|].
    destruct Hs as (s1 & Hr & HK1 & HC1 & _).
    assert (Hn1 : (n <= length (committed (fst (sv_rollback a))))%nat).
    { unfold sv_rollback. rewrite Ec. cbn. cbn in Hn. lia. }
    destruct (IH s1 _ HK1 HC1 Hn1) as (s' & Hro & HK' & HC' & Hv' & Hst').
    exists s'. cbn [rolln]. split; [econstructor; eauto|]. auto.
Qed.

Theorem rollback_count (s : rv) a : K s a -> Clean s ->
  exists s', rollbacks_ok tsize dec (length (committed a)) s s' /\ rv_rollback tsize dec s' = (s', Err EIO).
Proof using tsize_pos enc_len dec_enc.
  intros HK HC. destruct (rollback_chain (length (committed a)) s a HK HC (le_n _)) as (s' & Hro & HK' & HC' & _).
  exists s'. split; [exact Hro|].
  pose proof (rollback_step s' _ HK' HC') as Hs. now rewrite (rolln_all _ a eq_refl) in Hs.
Qed.

Lemma rb_loop_spec (target : N) : forall (n : nat) (s : rv) a, K s a -> Clean s -> length (committed a) = n ->
  exists s', rb_loop tsize dec (map (@sn_stamp T) (firstn n (base a :: committed a))) target s = (s', Ok tt) /\
    K s' (sv_rollback_before (Datatypes.S n) target a) /\ Clean s' /\
    (Inv s -> Inv s').
Proof.
  induction n as [|n IH]; intros s a HK HC Hn.
  - destruct (committed a) eqn:Ec; [|discriminate]. cbn [firstn map rb_loop sv_rollback_before].
    exists s. split; [reflexivity|]. split; [destruct (sstamp a <? target); [exact HK|rewrite Ec; exact HK]|]. auto.
  - pose proof HK as (HR & Hst & _). destruct HR as (R1 & _).
    destruct (committed a) as [|Sn rest'] eqn:Ec; [discriminate|]. cbn [firstn map rb_loop]. cbn [sv_rollback_before].
    rewrite <- Hst, R1. destruct (stamp s <? target) eqn:Et.
    + exists s. split; [reflexivity|]. auto.
    + rewrite N.eqb_refl. cbn [negb]. rewrite Ec.
      pose proof (rollback_step s a HK HC) as Hs. rewrite Ec in Hs. destruct Hs as (s1 & -> & HK1 & HC1 & _ & _ & HI1).
      assert (Ea : fst (sv_rollback a) = mkSv (sn_contents Sn) (sn_stamp Sn) Sn rest' (sk a)) by (unfold sv_rollback; rewrite Ec; reflexivity).
      rewrite Ea in *.
      destruct (IH s1 _ HK1 HC1) as (s' & Hl & HK' & HC' & HI').
      { cbn. cbn in Hn. lia. }
      cbn [base committed] in Hl. exists s'. split; [exact Hl|]. split; [exact HK'|]. split; [exact HC'|]. auto.
Qed.

(* C04_rollback_before: it ends exactly where the reference ends (the newest committed state with a stamp below the
   target, or the oldest one still retained) and returns that stamp *)
Theorem rollback_before_spec (s : rv) a target : K s a -> Clean s -> changes s <> None ->
  let a' := sv_rollback_before (Datatypes.S (length (committed a))) target a in
  exists s', rv_rollback_before tsize dec target s = (s', Ok (sstamp a')) /\ K s' a' /\ Clean s' /\
             view tsize dec s' = contents a' /\ (Inv s -> Inv s').
Proof using tsize_pos enc_len dec_enc.
  intros HK HC Hch. cbv zeta. unfold rv_rollback_before, find_rollback_files.
  destruct (changes s) as [l|] eqn:El; [|congruence].
  rewrite (sel_of_K tsize enc dec s a l HK El).
  destruct (rb_loop_spec target (length (committed a)) s a HK HC eq_refl) as (s' & -> & HK' & HC' & HI').
  exists s'. destruct (K_view tsize enc dec _ _ HK') as [V' S']. rewrite S'. auto.
Qed.

(* C04_continuation_from_any_state *)
Theorem strict_agree : forall h edited (s : rv) a, K s a -> Inv s -> (edited = false -> Clean s) -> strict edited s a h ->
  agrees s a h /\ K (run tsize enc dec s h) (srun a h) /\ Inv (run tsize enc dec s h) /\
  (final_ed edited h = false -> Clean (run tsize enc dec s h)).
Proof using tsize_pos enc_len dec_enc.
  induction h as [|o t IH]; intros edited s a HK HI HC Hs; cbn [RvChain.strict RvChain.agrees RvRollback.run srun final_ed] in *; [auto|].
  destruct Hs as [Ho Ht].
  assert (Step : snd (step s o) = snd (sstep a o) /\ K (fst (step s o)) (fst (sstep a o)) /\
                 Inv (fst (step s o)) /\ (next_ed edited o = false -> Clean (fst (step s o)))).
  { pose proof (edit_step tsize enc dec s a o HK HI) as Ed.
    destruct o as [v|i| | | | | |i v|i|i|v|st|st| |st|st|st n|st off x]; try contradiction;
      try (destruct (Ed I) as (A & B & C); split; [exact C|]; split; [exact A|]; split; [exact B|discriminate]).
    - destruct Ho as [Hlt Hv]. destruct (commit_step s a st HK HI Hlt Hv) as (A & B & C & D).
      cbn [RvRollback.step sstep]. destruct (rv_commit tsize enc dec st s) as [s' r]. cbn [fst snd] in *. subst r.
      cbn [of_unit]. split; [destruct (sk a =? 0); reflexivity|split; [exact B|split; [exact C|intros _; exact D]]].
    - rename Ho into He. specialize (HC He). pose proof (rollback_step s a HK HC) as Hr.
      cbn [RvRollback.step sstep]. unfold sv_rollback in *. destruct (committed a) as [|Sn rest'] eqn:Ec.
      + rewrite Hr. cbn [fst snd of_unit]. split; [reflexivity|split; [exact HK|split; [exact HI|intros _; exact HC]]].
      + destruct Hr as (s' & -> & HK' & HC' & _ & _ & HI'). cbn [fst snd of_unit]. cbn [fst] in HK'. auto 6.
    - destruct Ho as (He & Hch). specialize (HC He).
      destruct (rollback_before_spec s a st HK HC Hch) as (s' & Hr & HK' & HC' & _ & HI').
      cbn [RvRollback.step sstep]. rewrite Hr. cbn [fst snd]. auto 6. }
  destruct Step as (S1 & S2 & S3 & S4).
  destruct (IH (next_ed edited o) _ _ S2 S3 S4 Ht) as (A1 & A2 & A3 & A4).
  destruct (K_view tsize enc dec _ _ S2) as [V1 V2]. auto 8.
Qed.

(* C04_continuation from a fresh vector with retention k0 > 0 *)
Theorem continuation k0 h : 0 < k0 -> strict false (rv_init k0) (sv_init k0) h -> agrees (rv_init k0) (sv_init k0) h.
Proof.
  intros Hk Hs. destruct (K_init tsize enc dec k0 Hk) as [HK HC].
  apply (strict_agree h false (rv_init k0) (sv_init k0) HK (Inv_init k0) (fun _ => HC) Hs).
Qed.

(* C16_count: after a run of commits (any edits in between) with retention k0 > 0, exactly min k0 (number of commits)
   successive rollbacks succeed and the next one is refused with the vector unchanged *)
Theorem count k0 h : 0 < k0 -> no_rollbacks h -> final_ed false h = false ->
  strict false (rv_init k0) (sv_init k0) h ->
  exists s', rollbacks_ok tsize dec (Nat.min (N.to_nat k0) (n_commits h)) (run tsize enc dec (rv_init k0) h) s' /\
             rv_rollback tsize dec s' = (s', Err EIO).
Proof.
  intros Hk Hn Hf Hs. destruct (K_init tsize enc dec k0 Hk) as [HK HC].
  destruct (strict_agree h false (rv_init k0) (sv_init k0) HK (Inv_init k0) (fun _ => HC) Hs) as (_ & HK' & _ & HC').
  destruct (committed_count h (sv_init k0) Hn Hk (Nat.le_0_l _)) as [E1 E2]. cbn [sv_init committed sk length Nat.add] in E1, E2.
  rewrite E2 in E1. rewrite <- E1. apply rollback_count; auto.
Qed.
End ROUND_TRIP.
