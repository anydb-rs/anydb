(* The Rust code skips a BTreeSet/BTreeMap removal when the collection is empty and skips a header update that
   changes nothing; Vec/RvModel.v mirrors those branches.  Each such branch yields the state the unconditional
   update yields, so every operation is ONE chain of field updates, and a field of the new state is read off
   by computation. *)
From Anydb Require Import Common.Base Common.ListFacts Vec.RvBase Vec.RvChange Vec.RvModel.

(* A new field or setter of RvModel.rv is entered in both lists below, and in the patterns
   `destruct s as [? … ?]` of this file, which give the fields by position. *)
Tactic Notation "rv_fields" :=
  cbn [reg hdr_disk stored_len pushed prev_pushed prev_stored_len holes prev_holes updated prev_updated
       has_stored_holes holes_region stamp hdr_modified changes k stale_reads
       set_reg set_stored_len set_pushed set_prev_pushed set_prev_stored_len set_holes set_prev_holes set_updated
       set_prev_updated set_hsh set_holes_region set_hdr set_changes add_stale].
Tactic Notation "rv_fields" "in" ne_hyp_list(Hs) :=
  cbn [reg hdr_disk stored_len pushed prev_pushed prev_stored_len holes prev_holes updated prev_updated
       has_stored_holes holes_region stamp hdr_modified changes k stale_reads
       set_reg set_stored_len set_pushed set_prev_pushed set_prev_stored_len set_holes set_prev_holes set_updated
       set_prev_updated set_hsh set_holes_region set_hdr set_changes add_stale] in Hs.

Section EQ.
Context {T : Type}.
Notation rv := (@rv T).

Lemma rm_hole_eq i (s : rv) :
  match holes s with [] => s | _ :: _ => set_holes (ns_remove i (holes s)) s end = set_holes (ns_remove i (holes s)) s.
Proof. destruct s as [? ? ? ? ? ? h ? ? ? ? ? ? ? ? ? ?]. cbn. now destruct h. Qed.
Lemma rm_updated_eq i (s : rv) :
  match updated s with [] => s | _ :: _ => set_updated (nm_remove i (updated s)) s end = set_updated (nm_remove i (updated s)) s.
Proof. destruct s as [? ? ? ? ? ? ? ? u ? ? ? ? ? ? ? ?]. cbn. now destruct u. Qed.

Lemma update_at_stored i v (s : rv) : i < stored_len s ->
  rv_update_at i v s = (set_updated (nm_insert i v (updated s)) (set_holes (ns_remove i (holes s)) s), Ok tt).
Proof. intros H. unfold rv_update_at. destruct (N.leb_spec (stored_len s) i); [lia|]. now rewrite rm_hole_eq. Qed.
Lemma update_at_pushed i v (s : rv) x : stored_len s <= i -> get (pushed s) (i - stored_len s) = Some x ->
  rv_update_at i v s =
  (set_holes (ns_remove i (holes s)) (set_pushed (set_nth (pushed s) (N.to_nat (i - stored_len s)) v) s), Ok tt).
Proof.
  intros H Hx. unfold rv_update_at. destruct (N.leb_spec (stored_len s) i); [|lia]. now rewrite Hx, rm_hole_eq.
Qed.
Lemma update_at_high i v (s : rv) : rlen s <= i -> rv_update_at i v s = (s, Err EIndexTooHigh).
Proof.
  unfold rv_update_at, rlen. intros H. destruct (N.leb_spec (stored_len s) i); [|lia]. now rewrite get_none by lia.
Qed.

Lemma update_at_ok i v (s : rv) : i < rlen s ->
  exists s', rv_update_at i v s = (s', Ok tt) /\ stored_len s' = stored_len s /\ len (pushed s') = len (pushed s).
Proof.
  unfold rlen. intros H. destruct (N.lt_ge_cases i (stored_len s)) as [Hi|Hi].
  - rewrite update_at_stored by exact Hi. eexists. repeat split.
  - destruct (get_some (pushed s) (i - stored_len s) ltac:(lia)) as [x Hx].
    rewrite (update_at_pushed i v s x Hi Hx). eexists. split; [reflexivity|]. split; [reflexivity|]. apply len_set_nth.
Qed.

(* fill_first_hole_or_push pops the hole before update_at removes it again *)
Lemma update_at_hole_removed i v (s : rv) : i < rlen s ->
  rv_update_at i v (set_holes (ns_remove i (holes s)) s) = rv_update_at i v s.
Proof.
  unfold rlen. intros H. destruct (N.lt_ge_cases i (stored_len s)) as [Hi|Hi].
  - rewrite !update_at_stored by exact Hi. rv_fields. now rewrite ns_remove_idem.
  - destruct (get_some (pushed s) (i - stored_len s)) as [x Hx]; [lia|].
    rewrite (update_at_pushed i v s x Hi Hx), (update_at_pushed i v (set_holes _ s) x Hi Hx). rv_fields.
    now rewrite ns_remove_idem.
Qed.

Lemma unchecked_delete_at_eq i (s : rv) :
  unchecked_delete_at i s = set_holes (ns_insert i (holes s)) (set_updated (nm_remove i (updated s)) s).
Proof. unfold unchecked_delete_at. now rewrite rm_updated_eq. Qed.

Lemma update_stamp_eq st (s : rv) :
  update_stamp st s = set_hdr (hdr_disk s) st (if stamp s =? st then hdr_modified s else true) s.
Proof. unfold update_stamp. destruct (N.eqb_spec (stamp s) st) as [<-|]; [now destruct s|reflexivity]. Qed.
Lemma write_header_eq (s : rv) :
  write_header_if_needed s = set_hdr (if hdr_modified s then stamp s else hdr_disk s) (stamp s) false s.
Proof. unfold write_header_if_needed. destruct s as [? ? ? ? ? ? ? ? ? ? ? ? ? m ? ? ?]. cbn. now destruct m. Qed.

(* truncate_if_needed_at: the three shapes truncate_pushed produces are one *)
Lemma rv_truncate_eq idx (s : rv) :
  rv_truncate idx s =
  set_stored_len (N.min idx (stored_len s)) (set_pushed (take (idx - stored_len s) (pushed s)) (truncate_dirty_at idx s)).
Proof.
  unfold rv_truncate, truncate_pushed, truncate_dirty_at. rv_fields.
  destruct (N.leb_spec (stored_len s + len (pushed s)) idx) as [H|H].
  - rewrite take_all by lia. replace (N.min idx (stored_len s)) with (stored_len s) by lia. now destruct s.
  - destruct (N.leb_spec idx (stored_len s)) as [H1|H1].
    + replace (idx - stored_len s) with 0 by lia. replace (N.min idx (stored_len s)) with idx by lia.
      destruct (N.ltb_spec idx (stored_len s)); [reflexivity|]. replace idx with (stored_len s) by lia. now destruct s.
    + destruct (N.ltb_spec idx (stored_len s)); [lia|]. replace (N.min idx (stored_len s)) with (stored_len s) by lia.
      now destruct s.
Qed.

(* undo_changes restores the holes only when one of the three sets is non-empty; otherwise all are empty already *)
Lemma restore_holes_eq (ph : nset) (s : rv) :
  (if match ph with [] => false | _ :: _ => true end || match holes s with [] => false | _ :: _ => true end
      || match prev_holes s with [] => false | _ :: _ => true end
   then set_prev_holes ph (set_holes ph s) else s) = set_prev_holes ph (set_holes ph s).
Proof. destruct s as [? ? ? ? ? ? h p ? ? ? ? ? ? ? ? ?]. cbn. now destruct ph, h, p. Qed.
(* … and truncates the dirty maps only when the vector gets shorter *)
Lemma dirty_if_eq (c : bool) n (s : rv) :
  (if c then truncate_dirty_at n s else s) =
  set_updated (if c then nm_below n (updated s) else updated s) (set_holes (if c then ns_below n (holes s) else holes s) s).
Proof. destruct c; [reflexivity|now destruct s]. Qed.
End EQ.
