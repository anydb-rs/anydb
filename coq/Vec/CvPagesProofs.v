(* Vec/CvPagesProofs.v — facts about the definitions of Vec/CvPages.v: `chunks n l` cuts l into pieces that
   concatenate back to l, all of n elements but the last (`chunked`, `chunks_spec`); the index codec is the page
   codec of Codec/Vecdb.v entry by entry, so it round-trips on valid pages (`decode_encode_pages`) and a prefix of
   the encoded index is the encoding of a prefix (`take_encode_pages`). *)
From Anydb Require Import Common.Base Common.LE Common.ListFacts Gen.Consts Gen.Sizes Codec.Vecdb Codec.VecdbProofs
  Vec.CvPages Vec.CvLists.

(* drop_app_le, drop_app_ge, get_app_l, get_none below are the lemmas of Common/ListFacts.v of the same names, stated
   again: in a file that imports this one (CvInv.v) the short names resolve to these *)
Lemma drop_0 {A} (l : list A) : drop 0 l = l.
Proof. reflexivity. Qed.

Lemma drop_app_le {A} n (a b : list A) : n <= len a -> drop n (a ++ b) = drop n a ++ b.
Proof. apply ListFacts.drop_app_le. Qed.

Lemma drop_app_ge {A} n (a b : list A) : len a <= n -> drop n (a ++ b) = drop (n - len a) b.
Proof. apply ListFacts.drop_app_ge. Qed.

Lemma map_take {A B} (f : A -> B) n l : map f (take n l) = take n (map f l).
Proof. symmetry. apply take_map. Qed.

Lemma get_app_l {A} (a b : list A) i : i < len a -> get (a ++ b) i = get a i.
Proof. apply ListFacts.get_app_l. Qed.
Lemma get_0 {A} (x : A) l : get (x :: l) 0 = Some x.
Proof. reflexivity. Qed.
Lemma get_none {A} (l : list A) i : len l <= i -> get l i = None.
Proof. apply ListFacts.get_none. Qed.

Lemma last_opt_app {A} (l : list A) x : last_opt (l ++ [x]) = Some x.
Proof.
  induction l as [|a l IH]; [reflexivity|].
  cbn [app last_opt]. destruct (l ++ [x]) eqn:E.
  - destruct l; discriminate.
  - exact IH.
Qed.
Lemma last_opt_nil {A} : last_opt (@nil A) = None.
Proof. reflexivity. Qed.
Lemma last_opt_none {A} (l : list A) : last_opt l = None -> l = [].
Proof.
  destruct (list_snoc_cases l) as [->|(l' & x & ->)]; [reflexivity|]. now rewrite last_opt_app.
Qed.

Lemma chunks_f_fuel {A} n (Hn : 0 < n) : forall f1 f2 (l : list A),
  (length l <= f1)%nat -> (length l <= f2)%nat -> chunks_f f1 n l = chunks_f f2 n l.
Proof.
  induction f1 as [|f1 IH]; intros f2 l H1 H2.
  - destruct l; [|cbn in H1; lia]. destruct f2; reflexivity.
  - destruct f2 as [|f2].
    + destruct l; [reflexivity|cbn in H2; lia].
    + cbn [chunks_f]. destruct l as [|a l]; [reflexivity|].
      f_equal. apply IH; unfold drop; rewrite skipn_length; cbn [length] in *; lia.
Qed.

Lemma chunks_nil {A} n : chunks n (@nil A) = [].
Proof. reflexivity. Qed.

Lemma chunks_cons {A} n (l : list A) : 0 < n -> l <> [] -> chunks n l = take n l :: chunks n (drop n l).
Proof.
  intros Hn Hl. unfold chunks. destruct l as [|a l]; [congruence|].
  cbn [length chunks_f]. f_equal.
  apply chunks_f_fuel; auto; unfold drop; rewrite skipn_length; cbn [length]; lia.
Qed.

Lemma chunks_one {A} n (l : list A) : 1 <= len l <= n -> chunks n l = [l].
Proof.
  intros H. rewrite chunks_cons by (try lia; intros ->; rewrite len_nil in H; lia).
  now rewrite take_all, drop_all by lia.
Qed.

Lemma chunks_concat_blocks {A} n (bs : list (list A)) :
  0 < n -> Forall (fun b => len b = n) bs -> chunks n (concat bs) = bs.
Proof.
  intros Hn H. induction H as [|b bs Hb Hbs IH]; [reflexivity|].
  cbn [concat]. rewrite chunks_cons; auto.
  - rewrite take_app_exact, drop_app_exact by auto. now rewrite IH.
  - destruct b; [rewrite len_nil in Hb; lia|discriminate].
Qed.

Inductive chunked {A} (n : N) : list (list A) -> Prop :=
| chunked_nil : chunked n []
| chunked_last c : 1 <= len c -> len c <= n -> chunked n [c]
| chunked_cons c t : len c = n -> t <> [] -> chunked n t -> chunked n (c :: t).

Lemma chunks_spec {A} n (Hn : 0 < n) : forall (k : nat) (l : list A), (length l <= k)%nat ->
  chunked n (chunks n l) /\ concat (chunks n l) = l.
Proof.
  induction k as [|k IH]; intros l Hk.
  - destruct l; [|cbn in Hk; lia]. split; [constructor|reflexivity].
  - destruct l as [|a l]; [split; [constructor|reflexivity]|].
    rewrite chunks_cons by (auto; discriminate).
    set (l0 := a :: l) in *.
    assert (Hd : (length (drop n l0) <= k)%nat).
    { unfold drop. rewrite skipn_length. subst l0. cbn [length] in *. lia. }
    destruct (IH _ Hd) as [IH1 IH2]. split.
    + destruct (chunks n (drop n l0)) eqn:E.
      * apply chunked_last; rewrite len_take; subst l0; rewrite len_cons; lia.
      * apply chunked_cons; auto; [|discriminate].
        rewrite len_take. destruct (N.le_gt_cases n (len l0)) as [?|Hlt]; [lia|].
        exfalso. rewrite drop_all in E by lia. discriminate.
    + cbn [concat]. rewrite IH2. apply take_drop.
Qed.

Lemma chunks_chunked {A} n (l : list A) : 0 < n -> chunked n (chunks n l).
Proof. intros Hn. exact (proj1 (chunks_spec n Hn (length l) l (Nat.le_refl _))). Qed.
Lemma chunks_concat {A} n (l : list A) : 0 < n -> concat (chunks n l) = l.
Proof. intros Hn. exact (proj2 (chunks_spec n Hn (length l) l (Nat.le_refl _))). Qed.

Lemma len_page_to_bytes p : len (page_to_bytes p) = SIZE_OF_PAGE.
Proof. unfold page_to_bytes. rewrite !len_app, len_enc_u64, !len_enc_u32. reflexivity. Qed.

Lemma len_encode_pages l : len (encode_pages l) = len l * SIZE_OF_PAGE.
Proof.
  induction l as [|p l IH]; [reflexivity|].
  cbn [encode_pages flat_map]. fold (encode_pages l).
  rewrite len_app, len_page_to_bytes, len_cons, IH. lia.
Qed.

Lemma encode_pages_app a b : encode_pages (a ++ b) = encode_pages a ++ encode_pages b.
Proof. unfold encode_pages. now rewrite flat_map_app. Qed.

Lemma encode_pages_concat l : encode_pages l = concat (map page_to_bytes l).
Proof. unfold encode_pages. now rewrite flat_map_concat_map. Qed.

Lemma decode_encode_pages l :
  Forall (fun p => valid_page p = true) l -> decode_pages (encode_pages l) = Ok l.
Proof.
  intros H. unfold decode_pages. rewrite encode_pages_concat.
  rewrite chunks_concat_blocks.
  2: reflexivity.
  2:{ apply Forall_forall. intros b Hb. apply in_map_iff in Hb as (p & <- & _). apply len_page_to_bytes. }
  induction H as [|p l Hp Hl IH]; [reflexivity|].
  cbn [map collect_res]. rewrite page_roundtrip by exact Hp. cbn [lift_v bind].
  rewrite IH. reflexivity.
Qed.

Lemma set_changed_at_some c pi : c <= pi -> set_changed_at (Some c) pi = Some c.
Proof. intros. unfold set_changed_at. destruct (pi <? c) eqn:E; [lia|reflexivity]. Qed.

Lemma RAW_FLAG_val : RAW_FLAG = 2147483648. Proof. reflexivity. Qed.
Lemma MAXP_val : MAX_UNCOMPRESSED_PAGE_SIZE = 16384. Proof. reflexivity. Qed.

Lemma is_raw_page_raw st b v : page_is_raw (page_raw st b v) = true.
Proof. unfold page_is_raw, page_raw. cbn [p_values]. apply N.leb_le. lia. Qed.
Lemma count_page_raw st b v : page_values_count (page_raw st b v) = v.
Proof.
  unfold page_values_count. rewrite is_raw_page_raw. unfold page_raw. cbn [p_values]. lia.
Qed.
Lemma is_raw_page_compressed st b v : v < RAW_FLAG -> page_is_raw (page_compressed st b v) = false.
Proof. unfold page_is_raw, page_compressed. cbn [p_values]. intros. apply N.leb_gt. lia. Qed.
Lemma count_page_compressed st b v : v < RAW_FLAG -> page_values_count (page_compressed st b v) = v.
Proof.
  intros H. unfold page_values_count. rewrite is_raw_page_compressed by auto. reflexivity.
Qed.

Lemma next_start_snoc v pg : pages_next_start (v ++ [pg]) = page_end pg.
Proof. unfold pages_next_start. now rewrite last_opt_app. Qed.

Lemma take_encode_pages c l : take (c * SIZE_OF_PAGE) (encode_pages l) = encode_pages (take c l).
Proof.
  destruct (N.le_gt_cases c (len l)) as [H|H].
  - rewrite <- (take_drop c l) at 1. rewrite encode_pages_app.
    apply take_app_exact. rewrite len_encode_pages, len_take. now rewrite N.min_l by lia.
  - rewrite (take_all c l) by lia. apply take_all. rewrite len_encode_pages.
    change SIZE_OF_PAGE with 16. nia.
Qed.
