(* What holds of every parser written against ChangeCursor (base/change/cursor.rs), whichever way the cursor is
   modelled (RvChange.cursor: whole input and index; CvModel.cursor: remaining bytes and position) and whatever
   the error type.  All that is asked of a cursor type C is [on b k], the cursor over input b that has consumed
   k bytes.  `wb f` (f is well behaved): f never panics, and what it does on a truncated input is determined by
   what it did on the whole.  wb is closed under bind / if / match, so a model shows it of its one primitive read
   and of its parsers by walking their text.  For `whole f` (f from offset 0, then expect_end), wb f gives: no
   panic, every strict prefix and every extension of an accepted input is rejected. *)
From Anydb Require Import Common.Base.

Section Cur.
Variables (E C : Type) (on : list N -> N -> C).

Definition cop (A : Type) := C -> res E (A * C).
Definition np {A} (f : cop A) : Prop := forall c, f c <> Panic.
(* on [take m b] f gives the same answer when the cut lies at or behind the offset k' it ended on, and an
   error (not a panic) when the cut is before k' *)
Definition tr_ok {A} (f : cop A) : Prop :=
  forall b k m v c', k <= len b -> f (on b k) = Ok (v, c') ->
  exists k', c' = on b k' /\ k <= k' /\ k' <= len b /\
    (k' <= m -> f (on (take m b) k) = Ok (v, on (take m b) k')) /\
    (k <= m -> m < k' -> exists e, f (on (take m b) k) = Err e).
Definition wb {A} (f : cop A) : Prop := np f /\ tr_ok f.

Lemma wb_ret {A} (x : A) : wb (fun c => Ok (x, c)).
Proof.
  split; [intros c; discriminate|]. intros b k m v c' Hk H. injection H as <- <-. exists k. repeat split; try lia; auto.
Qed.
Lemma wb_err {A} e : wb (fun _ => @Err E (A * C) e).
Proof. split; [intros c|intros b k m v c' Hk]; discriminate. Qed.

Lemma wb_bind {A B} (f : cop A) (g : A * C -> res E (B * C)) :
  wb f -> (forall a, wb (fun c => g (a, c))) -> wb (fun c => bind (f c) g).
Proof.
  intros [Nf Hf] Hg. split.
  - intros c. specialize (Nf c). destruct (f c) as [[a c1]| |]; cbn [bind]; try congruence. apply Hg.
  - intros b k m v c' Hk H.
    destruct (f (on b k)) as [[a c1]| |] eqn:E1; cbn [bind] in H; try discriminate.
    destruct (Hf b k m a c1 Hk E1) as (k1 & -> & Hkk1 & Hk1 & Hle & Hgt).
    destruct (proj2 (Hg a) b k1 m v c' Hk1 H) as (k2 & -> & Hk12 & Hk2 & Hle2 & Hgt2).
    exists k2. repeat split; try lia.
    + intros Hm. rewrite Hle by lia. apply Hle2, Hm.
    + intros Hkm Hm. destruct (N.le_gt_cases k1 m) as [H1|H1].
      * rewrite Hle by lia. apply Hgt2; assumption.
      * destruct (Hgt Hkm H1) as [e ->]. exists e. reflexivity.
Qed.

Lemma wb_if {A} (cond : bool) (f g : cop A) : wb f -> wb g -> wb (fun c => if cond then f c else g c).
Proof. destruct cond; auto. Qed.
Lemma wb_opt {A X} (o : option X) (f : cop A) (g : X -> cop A) :
  wb f -> (forall x, wb (g x)) -> wb (fun c => match o with None => f c | Some x => g x c end).
Proof. destruct o; auto. Qed.
Lemma wb_ext {A} (f g : cop A) : (forall c, f c = g c) -> wb g -> wb f.
Proof. intros Ex [Ng Hg]. split; [intros c|intros b k m v c']; rewrite !Ex; auto. Qed.

(* cursor.rs expect_end: [at_end] tells the cursor that has consumed everything from all others *)
Variables (at_end : C -> bool) (eEnd : E).
Hypothesis at_end_on : forall b k, k <= len b -> at_end (on b k) = (k =? len b).

Definition whole {A} (f : cop A) (b : list N) : res E A :=
  bind (f (on b 0)) (fun x => if at_end (snd x) then Ok (fst x) else Err eEnd).

Section Whole.
Context {A : Type} (f : cop A) (Hf : wb f).

Lemma whole_np b : whole f b <> Panic.
Proof using Hf.
  unfold whole. pose proof (proj1 Hf (on b 0)). destruct (f (on b 0)) as [x| |]; cbn [bind]; try congruence.
  destruct (at_end _); discriminate.
Qed.

Lemma whole_end b x c : f (on b 0) = Ok (x, c) -> exists k', c = on b k' /\ k' <= len b.
Proof using Hf. intros H. destruct (proj2 Hf b 0 0 x c (N.le_0_l _) H) as (k' & -> & _ & Hk' & _). eauto. Qed.

Lemma on_end b k : k <= len b -> on b k = on b (len b) -> k = len b.
Proof using at_end_on.
  intros Hk Ek. apply (f_equal at_end) in Ek. rewrite !at_end_on, N.eqb_refl in Ek by lia. now apply N.eqb_eq.
Qed.

Lemma whole_ok_inv b x : whole f b = Ok x -> f (on b 0) = Ok (x, on b (len b)).
Proof using Hf at_end_on.
  unfold whole. intros H. destruct (f (on b 0)) as [[y c]| |] eqn:Ef; cbn [bind fst snd] in H; try discriminate.
  destruct (whole_end b y c Ef) as (k' & -> & Hk'). rewrite at_end_on in H by exact Hk'.
  destruct (N.eqb_spec k' (len b)) as [Ek|]; [subst k'|discriminate]. now injection H as ->.
Qed.

Theorem whole_prefix_rejected b x m : whole f b = Ok x -> m < len b -> exists e, whole f (take m b) = Err e.
Proof using Hf at_end_on.
  intros H Hm. apply whole_ok_inv in H.
  destruct (proj2 Hf b 0 m x _ (N.le_0_l _) H) as (k' & Ek & _ & Hk' & _ & Hgt).
  symmetry in Ek. apply on_end in Ek; [subst k'|exact Hk'].
  destruct (Hgt (N.le_0_l _) Hm) as [e He]. exists e. unfold whole. now rewrite He.
Qed.

(* f on b ++ extra either stops within b, then exactly where it stopped on b (at len b, short of the end), or
   runs into extra, then it fails on b *)
Theorem whole_trailing_rejected b x extra : whole f b = Ok x -> extra <> [] -> exists e, whole f (b ++ extra) = Err e.
Proof using Hf at_end_on.
  intros H Hx. apply whole_ok_inv in H.
  assert (Hl : len b < len (b ++ extra)).
  { rewrite len_app. destruct extra; [congruence|]. rewrite len_cons. lia. }
  unfold whole. destruct (f (on (b ++ extra) 0)) as [[y c]|e|] eqn:Ef; cbn [bind fst snd].
  - destruct (proj2 Hf (b ++ extra) 0 (len b) y c (N.le_0_l _) Ef) as (k' & -> & _ & Hb & Hle & Hgt).
    rewrite (take_app_exact b extra (len b) eq_refl) in Hle, Hgt.
    destruct (N.le_gt_cases k' (len b)) as [H1|H1].
    + rewrite H in Hle. specialize (Hle H1). injection Hle as _ Ek. symmetry in Ek. apply on_end in Ek; [subst k'|exact H1].
      rewrite at_end_on by exact Hb. destruct (N.eqb_spec (len b) (len (b ++ extra))); [lia|eauto].
    + destruct (Hgt (N.le_0_l _) H1) as [e He]. congruence.
  - eauto.
  - exfalso. exact (proj1 Hf _ Ef).
Qed.
End Whole.
End Cur.

Arguments np {E C A} f.
Arguments tr_ok {E C} on {A} f.
Arguments wb {E C} on {A} f.
Arguments wb_ret {E C on A} x.
Arguments wb_err {E C on A} e.
Arguments wb_bind {E C on A B} f g.
Arguments wb_if {E C on A} cond f g.
Arguments wb_opt {E C on A X} o f g.
Arguments wb_ext {E C on A} f g.
Arguments whole {E C} on at_end eEnd {A} f b.
Arguments whole_np {E C on at_end eEnd A f} Hf b.
Arguments whole_end {E C on A f} Hf b x c.
Arguments whole_ok_inv {E C on at_end eEnd} at_end_on {A f} Hf b x.
Arguments whole_prefix_rejected {E C on at_end eEnd} at_end_on {A f} Hf b x m.
Arguments whole_trailing_rejected {E C on at_end eEnd} at_end_on {A f} Hf b x extra.
