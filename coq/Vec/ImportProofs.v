(* Vec/ImportProofs.v — C14, over Vec/ImportModel.v.  The two entry points are `attempt` (one import_core) and
   `retry` (a second one on the reset store).
   On ARBITRARY stores (any damage, any orphan regions): `preserves`, what an import leaves alone.
   `holds`: a store holds a vector under a header; the stores produced by `created` do, whence the
   `*_effective` theorems for all versions, formats, data and holes.  The four user-level `*_full_stmt`
   are proved for `SameEntry` requests and refuted outside.
   What tools/gen_consts.py and tools/gen_import.py read off /repo (Gen/Consts.v, Gen/ImportFacts.v) enters the general
   proofs through these one-line lemmas only, each by cases and evaluation: `header_offset_pos`, `fcode_ok`,
   `fcode_inj` (values); `forced_calls` (forced_import_with calls import_with: `forced_eff` and all after it stand on it,
   the other branch of ImportModel.forced_import_with is not treated); `resets_mismatch`, `resets_unlisted`,
   `external_no_reset` (the reset list); `reset_no_main`, `reset_aux_wf`, `reset_fresh_view` (what the reset arm
   removes).  The witnesses and Examples evaluate them as well. *)
From Anydb Require Import Common.Base Common.ListFacts Gen.Consts Gen.Sizes Vec.ImportModel.

Lemma two32_pos : 0 < two32. Proof. reflexivity. Qed.
Lemma layer_lt fam : layer_version fam < two32.
Proof. destruct fam; reflexivity. Qed.
Lemma header_offset_pos : 0 < HEADER_OFFSET. Proof. reflexivity. Qed.

Lemma fcode_ok f : format_byte_ok (fcode f) = true.
Proof. destruct f; reflexivity. Qed.
Lemma fcode_inj f g : fcode f = fcode g -> f = g.
Proof. destruct f, g; intros H; try reflexivity; vm_compute in H; discriminate. Qed.
Lemma fcode_fam f g : fcode f = fcode g -> fam_of f = fam_of g.
Proof. intros H; now rewrite (fcode_inj _ _ H). Qed.

Lemma vadd_not_err oc a b k : vadd oc a b <> Err k.
Proof. unfold vadd. destruct (a + b <? two32), oc; discriminate. Qed.

Lemma vadd_lt oc a b r : vadd oc a b = Ok r -> r < two32.
Proof. unfold vadd, two32. destruct (N.ltb_spec (a + b) 4294967296), oc; try discriminate; intros [= <-]; lia. Qed.

Lemma vadd_inj oc a a' b r :
  a < two32 -> a' < two32 -> vadd oc a b = Ok r -> vadd oc a' b = Ok r -> a = a'.
Proof.
  unfold vadd, two32. intros Ha Ha'.
  destruct (N.ltb_spec (a + b) 4294967296), (N.ltb_spec (a' + b) 4294967296), oc; try discriminate; intros [= <-] [= E]; lia.
Qed.

(* two checked (or wrapping) additions are one: the running sum wraps, or panics, where the total does *)
Lemma vadd_vadd oc v l p : (let! v' := vadd oc v l in vadd oc v' p) = vadd oc v (l + p).
Proof.
  unfold vadd, two32.
  destruct (N.ltb_spec (v + l) 4294967296) as [H|H]; [|destruct oc]; cbn [bind].
  - now rewrite N.add_assoc.
  - now replace (v + (l + p) <? 4294967296) with false by lia.
  - replace (v + (l + p) <? 4294967296) with false by lia.
    destruct (N.ltb_spec ((v + l) mod 4294967296 + p) 4294967296); f_equal; lia.
Qed.

Lemma add_n_S oc k v l : add_n oc (S k) v l = vadd oc v (N.of_nat (S k) * l).
Proof.
  revert v. induction k as [|k IH]; intros v.
  - cbn [add_n]. rewrite N.mul_1_l. now destruct (vadd oc v l).
  - rewrite (Nat2N.inj_succ (S k)), N.mul_succ_l, N.add_comm, <- vadd_vadd.
    cbn [add_n] in *. destruct (vadd oc v l); cbn [bind]; [apply IH|reflexivity..].
Qed.

Lemma add_n_not_err oc k v l e : add_n oc k v l <> Err e.
Proof. destruct k; [discriminate|]. rewrite add_n_S. apply vadd_not_err. Qed.

Lemma add_n_lt oc k v l r : v < two32 -> add_n oc k v l = Ok r -> r < two32.
Proof. destruct k; [now intros Hv [= <-]|]. rewrite add_n_S. intros _. apply vadd_lt. Qed.

Lemma add_n_inj oc k v v' l r :
  v < two32 -> v' < two32 -> add_n oc k v l = Ok r -> add_n oc k v' l = Ok r -> v = v'.
Proof. destruct k; [now intros _ _ [= <-] [= <-]|]. rewrite !add_n_S. apply vadd_inj. Qed.

Lemma add_n_plus oc a b v l :
  add_n oc (a + b) v l = (let! x := add_n oc a v l in add_n oc b x l).
Proof.
  revert v; induction a; intros v; cbn [add_n Nat.add bind]; [reflexivity|].
  destruct (vadd oc v l); cbn [bind]; auto.
Qed.

Lemma add_n_in_range oc k v l :
  v + N.of_nat k * l < two32 -> add_n oc k v l = Ok (v + N.of_nat k * l).
Proof.
  destruct k; [intros _; cbn [add_n]; f_equal; lia|]. rewrite add_n_S. unfold vadd. intros H.
  now replace (_ <? two32) with true by lia.
Qed.

Lemma eff_inj oc fam e v v' r :
  v < two32 -> v' < two32 -> eff oc fam e v = Ok r -> eff oc fam e v' = Ok r -> v = v'.
Proof. unfold eff. intros Hv Hv' H1 H2. exact (add_n_inj oc _ v v' _ r Hv Hv' H1 H2). Qed.

Lemma eff_not_err oc fam e v k : eff oc fam e v <> Err k.
Proof. apply add_n_not_err. Qed.

Lemma forced_calls fam : forced_calls_import fam = true.
Proof. destruct fam; reflexivity. Qed.

Lemma eff_forced oc fam v :
  eff oc fam EForced v =
  (let! v1 := add_n oc (forced_own_adds fam) v (layer_version fam) in
   add_n oc (import_adds fam) v1 (layer_version fam)).
Proof. unfold eff, adds. rewrite forced_calls. apply add_n_plus. Qed.

Definition hdr_of (sv : N) (f : format) : hdr := {| h_hv := HEADER_VERSION; h_vv := sv; h_fmt := fcode f |}.

Lemma verify_ok_iff h rv f : verify h rv f = Ok tt <-> h = hdr_of rv f.
Proof.
  unfold verify, hdr_of. destruct h as [hv vv fm]; cbn [h_hv h_vv h_fmt]. split.
  - destruct (format_byte_ok fm); cbn [negb]; try discriminate.
    destruct (N.eqb_spec hv HEADER_VERSION); cbn [negb]; try discriminate.
    destruct (N.eqb_spec vv rv); cbn [negb]; try discriminate.
    destruct (N.eqb_spec fm (fcode f)); cbn [negb]; try discriminate.
    subst. reflexivity.
  - intros [= -> -> ->]. rewrite fcode_ok, !N.eqb_refl. reflexivity.
Qed.

Lemma verify_not_panic h rv f : verify h rv f <> Panic.
Proof.
  unfold verify.
  destruct (format_byte_ok (h_fmt h)), (h_hv h =? HEADER_VERSION), (h_vv h =? rv), (h_fmt h =? fcode f);
    cbn [negb]; discriminate.
Qed.

Lemma verify_ok_unit h rv f u : verify h rv f = Ok u -> h = hdr_of rv f.
Proof. destruct u. apply verify_ok_iff. Qed.

Lemma verify_err h rv f k :
  verify h rv f = Err k ->
  (k = InvalidFormat /\ format_byte_ok (h_fmt h) = false) \/
  (k = DifferentVersion /\ format_byte_ok (h_fmt h) = true /\ (h_hv h <> HEADER_VERSION \/ h_vv h <> rv)) \/
  (k = DifferentFormat /\ h_hv h = HEADER_VERSION /\ h_vv h = rv /\ h_fmt h <> fcode f).
Proof.
  unfold verify.
  destruct (format_byte_ok (h_fmt h)); cbn [negb]; [|intros [= <-]; auto].
  destruct (N.eqb_spec (h_hv h) HEADER_VERSION); cbn [negb]; [|intros [= <-]; auto 6].
  destruct (N.eqb_spec (h_vv h) rv); cbn [negb]; [|intros [= <-]; auto 6].
  destruct (N.eqb_spec (h_fmt h) (fcode f)); cbn [negb]; [discriminate|intros [= <-]; auto 7].
Qed.

Lemma verify_hdr_of sv g rv f :
  verify (hdr_of sv g) rv f =
  if negb (sv =? rv) then Err DifferentVersion
  else if negb (fcode g =? fcode f) then Err DifferentFormat else Ok tt.
Proof. unfold verify, hdr_of; cbn [h_hv h_vv h_fmt]. now rewrite fcode_ok, N.eqb_refl. Qed.

Lemma with_main_same s m : s_main s = m -> with_main s m = s.
Proof. destruct s; cbn. now intros ->. Qed.

Definition holes_wf (s : store) : Prop :=
  match s_holes s with Some a => a_len a mod SIZE_OF_USIZE = 0 | None => True end.
Definition pages_wf (s : store) : Prop :=
  match s_pages s with Some a => a_len a mod SIZE_OF_PAGE = 0 | None => True end.
Definition holes_list (s : store) : list N := match s_holes s with Some a => a_data a | None => [] end.
Definition pages_list (s : store) : list N := match s_pages s with Some a => a_data a | None => [] end.
Definition aux_wf (fam : family) (s : store) : Prop :=
  match fam with Raw => holes_wf s | Comp => pages_wf s end.
Definition ensure_pages (s : store) : store :=
  with_pages s (Some match s_pages s with Some a => a | None => {| a_len := 0; a_data := [] |} end).
Definition view_of (fam : family) (s : store) (m : mainreg) : view :=
  match fam with
  | Raw => {| v_data := m_data m; v_holes := holes_list s |}
  | Comp => {| v_data := take (sumN (pages_list s)) (m_data m); v_holes := [] |}
  end.
(* the store a successful import_core leaves (Pages::import creates a missing page index), and the condition on the
   data area under which the raw family does not answer CorruptedRegion: the two sides of `import_core_ok` *)
Definition after_open (fam : family) (s : store) : store :=
  match fam with Raw => s | Comp => ensure_pages s end.
Definition aligned (fam : family) (size : N) (m : mainreg) : Prop :=
  match fam with Raw => (m_len m - HEADER_OFFSET) mod size = 0 | Comp => True end.
(* what import_core shows when it had to create the main region (`import_core_fresh`): no values, but the raw family
   still reads a holes region that was left behind *)
Definition fresh_view (fam : family) (s : store) : view :=
  match fam with Raw => {| v_data := []; v_holes := holes_list s |} | Comp => {| v_data := []; v_holes := [] |} end.
Definition empty_view : view := {| v_data := []; v_holes := [] |}.

Lemma import_base_full s m rv f :
  s_main s = Some m -> HEADER_OFFSET <= m_len m ->
  import_base s rv f =
  (s, match verify (m_hdr m) rv f with Ok _ => Ok m | Err k => Err k | Panic => Panic end).
Proof.
  intros Hm Hl. unfold import_base. rewrite Hm.
  pose proof header_offset_pos.
  replace (m_len m =? 0) with false by lia. replace (m_len m <? HEADER_OFFSET) with false by lia.
  destruct (verify (m_hdr m) rv f); reflexivity.
Qed.

Lemma import_core_full_err fam size s m rv f k :
  s_main s = Some m -> HEADER_OFFSET <= m_len m -> verify (m_hdr m) rv f = Err k ->
  import_core fam size s rv f = (s, Err k).
Proof.
  intros Hm Hl Hv. unfold import_core. rewrite (import_base_full s m rv f Hm Hl), Hv. reflexivity.
Qed.

Lemma import_core_ok fam size s rv f s1 m :
  import_base s rv f = (s1, Ok m) -> aligned fam size m -> aux_wf fam s1 ->
  import_core fam size s rv f = (after_open fam s1, Ok (view_of fam s1 m)).
Proof.
  intros Hb Ha Hw. unfold import_core. rewrite Hb. destruct fam; cbn [aligned aux_wf after_open view_of] in *.
  - rewrite Ha, N.eqb_refl, andb_false_r.
    unfold holes_wf, holes_list in *. destruct (s_holes s1) as [a|]; [|reflexivity]. now rewrite Hw.
  - unfold pages_wf, pages_list, ensure_pages in *. destruct (s_pages s1) as [a|]; [now rewrite Hw|reflexivity].
Qed.

Definition no_main (s : store) : Prop :=
  match s_main s with None => True | Some m => m_len m = 0 end.

Lemma import_core_fresh fam size s rv f :
  no_main s -> aux_wf fam s ->
  import_core fam size s rv f = (after_open fam (with_main s (Some (fresh_main rv f))), Ok (fresh_view fam s)).
Proof.
  intros Hn Hw. rewrite (import_core_ok fam size s rv f (with_main s (Some (fresh_main rv f))) (fresh_main rv f)).
  - destruct fam; [reflexivity|]. cbn [view_of fresh_main m_data]. unfold take. now rewrite firstn_nil.
  - unfold import_base, no_main in *. destruct (s_main s) as [m|]; [|reflexivity]. now rewrite Hn.
  - destruct fam; [reflexivity|exact I].
  - destruct fam, s; exact Hw.
Qed.

(* what the plain import leaves alone on any store, whatever it returns; a main region of length 0 is excepted:
   import_base gives it a fresh header *)
Definition preserves (s s' : store) : Prop :=
  (forall m, s_main s = Some m -> m_len m <> 0 -> s_main s' = Some m) /\
  s_holes s' = s_holes s /\
  (forall a, s_pages s = Some a -> s_pages s' = Some a).

Lemma preserves_refl s : preserves s s.
Proof. repeat split; auto. Qed.

Lemma import_base_preserves s rv f : preserves s (fst (import_base s rv f)).
Proof.
  unfold import_base. destruct (s_main s) as [m|] eqn:Em.
  - destruct (N.eqb_spec (m_len m) 0) as [E0|];
      [|destruct (m_len m <? HEADER_OFFSET); [|destruct (verify _ _ _)]; apply preserves_refl].
    repeat split; auto. intros m' Hm' Hl. rewrite Em in Hm'. injection Hm' as <-. contradiction.
  - repeat split; auto. intros m' Hm'. rewrite Em in Hm'. discriminate.
Qed.

Lemma import_core_after_base fam size s rv f s1 m s' r :
  import_base s rv f = (s1, Ok m) -> import_core fam size s rv f = (s', r) ->
  s' = after_open fam s1 /\
  forall k, r = Err k -> k = CorruptedRegion \/ (k = WrongLength /\ ~ aux_wf fam s1).
Proof.
  unfold import_core. intros ->. destruct fam; cbn [aux_wf after_open]; unfold holes_wf, pages_wf.
  - destruct (_ && _); [|destruct (s_holes s1) as [a|]; [destruct (N.eqb_spec (a_len a mod SIZE_OF_USIZE) 0)|]];
      intros [= <- <-]; (split; [reflexivity|intros k [= <-]; auto]).
  - unfold ensure_pages. destruct (s_pages s1) as [a|]; [destruct (N.eqb_spec (a_len a mod SIZE_OF_PAGE) 0)|];
      intros [= <- <-]; (split; [reflexivity|intros k [= <-]; auto]).
Qed.

Lemma import_core_preserves fam size s rv f s' r :
  import_core fam size s rv f = (s', r) -> preserves s s'.
Proof.
  intros H. pose proof (import_base_preserves s rv f) as P. destruct (import_base s rv f) as [s1 [m| |]] eqn:Eb;
    [|unfold import_core in H; rewrite Eb in H; now injection H as <- _..].
  destruct (import_core_after_base _ _ _ _ _ _ _ _ _ Eb H) as [-> _]. destruct fam; [exact P|]. cbn [fst] in P.
  destruct P as (P1 & P2 & P3). repeat split; auto. intros a Ha. cbn. now rewrite (P3 a Ha).
Qed.

(* The entry points after the version arithmetic: import_with is one attempt with the effective version; forced_import_with makes a second one on the reset store
   when the first ended in an error of the reset list. *)
Definition attempt (fam : family) (size : N) (fault : option ekind) (s : store) (rv : N) (f : format) :=
  match fault with Some k => (s, Err k) | None => import_core fam size s rv f end.
Definition retry (fam : family) (size : N) (fault : option ekind) (s : store) (rv : N) (f : format) :=
  match attempt fam size fault s rv f with
  | (s1, Err k) => if resets fam k then import_core fam size (reset_regions fam s1) rv f else (s1, Err k)
  | r => r
  end.

Lemma import_with_eff oc fam size fault s v f :
  import_with oc fam size fault s v f =
  match eff oc fam EImport v with Ok rv => attempt fam size fault s rv f | Err k => (s, Err k) | Panic => (s, Panic) end.
Proof. reflexivity. Qed.

Lemma forced_eff oc fam size fault s v f :
  forced_import_with oc fam size fault s v f =
  match eff oc fam EForced v with Ok rv => retry fam size fault s rv f | Err k => (s, Err k) | Panic => (s, Panic) end.
Proof.
  unfold forced_import_with. rewrite forced_calls, eff_forced.
  destruct (add_n oc (forced_own_adds fam) v (layer_version fam)) as [v1| |]; cbn [bind]; [|reflexivity..].
  unfold import_with. destruct (add_n oc (import_adds fam) v1 (layer_version fam)) as [rv|k|] eqn:E; [reflexivity| |reflexivity].
  now apply add_n_not_err in E.
Qed.

Lemma import_with_preserves oc fam size fault s v f s' r :
  import_with oc fam size fault s v f = (s', r) -> preserves s s'.
Proof.
  rewrite import_with_eff. destruct (eff oc fam EImport v); [destruct fault|..]; cbn [attempt];
    try (intros [= <- _]; apply preserves_refl).
  apply import_core_preserves.
Qed.

Lemma import_with_err_full oc fam size s m v f s' k :
  s_main s = Some m -> HEADER_OFFSET <= m_len m ->
  import_with oc fam size None s v f = (s', Err k) ->
  (k = DifferentVersion \/ k = DifferentFormat \/ k = InvalidFormat) -> s' = s.
Proof.
  intros Hm Hl H Hk. rewrite import_with_eff in H.
  destruct (eff oc fam EImport v) as [rv| |]; try (now injection H as <- _). cbn [attempt] in H.
  pose proof (import_base_full s m rv f Hm Hl) as Eb.
  destruct (verify (m_hdr m) rv f) eqn:Ev.
  - (* header fine: then the error is none of the three *)
    exfalso. destruct (import_core_after_base _ _ _ _ _ _ _ _ _ Eb H) as [_ E].
    destruct (E k eq_refl) as [->|[-> _]], Hk as [|[|]]; discriminate.
  - rewrite (import_core_full_err fam size s m rv f e Hm Hl Ev) in H. now injection H as <- _.
  - now apply verify_not_panic in Ev.
Qed.

Lemma resets_mismatch fam k : k = DifferentVersion \/ k = DifferentFormat -> resets fam k = true.
Proof. intros [->| ->]; destruct fam; reflexivity. Qed.
Lemma resets_unlisted fam k :
  k = TryLock \/ k = IO \/ k = RawDB \/ k = CorruptedRegion \/ k = InvalidFormat -> resets fam k = false.
Proof. intros [->|[->|[->|[->| ->]]]]; destruct fam; reflexivity. Qed.

Lemma forced_fault_passthrough oc fam size s v f k :
  resets fam k = false ->
  forced_import_with oc fam size (Some k) s v f = (s, Err k) \/
  forced_import_with oc fam size (Some k) s v f = (s, Panic).
Proof.
  intros Hr. rewrite forced_eff. destruct (eff oc fam EForced v) as [rv|e|] eqn:E; auto.
  - left. unfold retry, attempt. now rewrite Hr.
  - now apply eff_not_err in E.
Qed.

(* the forced import replaces a full main region only if the first attempt ended in an error of the reset list *)
Lemma forced_changes_only_if oc fam size fault s v f s' r m :
  forced_import_with oc fam size fault s v f = (s', r) ->
  s_main s = Some m -> HEADER_OFFSET <= m_len m -> s_main s' <> Some m ->
  (exists k, fault = Some k /\ resets fam k = true) \/
  (fault = None /\ exists rv, eff oc fam EForced v = Ok rv /\ (m_hdr m <> hdr_of rv f \/ ~ aux_wf fam s)).
Proof.
  rewrite forced_eff. intros H Hm Hl Hch. pose proof header_offset_pos as Hp.
  destruct (eff oc fam EForced v) as [rv|e|]; try (injection H as <- _; contradiction).
  unfold retry in H. destruct (attempt fam size fault s rv f) as [s1 r1] eqn:E.
  assert (Hpres : s_main s1 = Some m).
  { destruct fault; [now injection E as <- _|]. apply import_core_preserves in E. apply E; [exact Hm|lia]. }
  destruct r1 as [w|k|]; try (injection H as <- _; contradiction).
  destruct (resets fam k) eqn:Hr; [|injection H as <- _; contradiction].
  destruct fault as [k'|]; cbn [attempt] in E.
  - left. injection E as _ <-. eauto.
  - right. split; [reflexivity|]. exists rv. split; [reflexivity|].
    pose proof (import_base_full s m rv f Hm Hl) as Eb. destruct (verify (m_hdr m) rv f) eqn:Ev.
    + right. destruct (import_core_after_base _ _ _ _ _ _ _ _ _ Eb E) as [_ Hk].
      destruct (Hk k eq_refl) as [->|[_ Hw]]; [|exact Hw]. now rewrite resets_unlisted in Hr by auto.
    + left. intros Heq. apply verify_ok_iff in Heq. congruence.
    + now apply verify_not_panic in Ev.
Qed.

Definition req_fam (q : req) : family := fam_of (q_fmt q).
Definition eff_holes (q : req) (h : list N) : list N := match req_fam q with Raw => h | Comp => [] end.
Definition expected_view (q1 : req) (d h : list N) : view := {| v_data := d; v_holes := eff_holes q1 h |}.

Lemma run_entry_ok oc size fault q s rv :
  eff_req oc q = Ok rv ->
  run_entry oc size fault q s =
  (match q_entry q with EImport => attempt | EForced => retry end) (req_fam q) size fault s rv (q_fmt q).
Proof.
  unfold run_entry, eff_req, req_fam. intros E. destruct (q_entry q); [rewrite import_with_eff|rewrite forced_eff]; now rewrite E.
Qed.

Lemma run_entry_eff_panic oc size fault q s :
  eff_req oc q = Panic -> run_entry oc size fault q s = (s, Panic).
Proof.
  unfold run_entry, eff_req. intros E. destruct (q_entry q); [rewrite import_with_eff|rewrite forced_eff]; now rewrite E.
Qed.

Theorem eff_in_range oc q :
  q_ver q + N.of_nat (adds (req_fam q) (q_entry q)) * layer_version (req_fam q) < two32 ->
  eff_req oc q = Ok (q_ver q + N.of_nat (adds (req_fam q) (q_entry q)) * layer_version (req_fam q)).
Proof. intros H. unfold eff_req, eff. now apply add_n_in_range. Qed.

Theorem eff_panic_only_checked q : eff_req false q <> Panic.
Proof.
  unfold eff_req, eff. destruct (adds _ _); [discriminate|]. rewrite add_n_S. unfold vadd. destruct (_ <? _); discriminate.
Qed.

(* A store HOLDS a vector under header (sv, g): the request for that header is answered with its view w and
   changes nothing; a request for another header gets a version / format error, nothing touched. *)
Set Implicit Arguments.
Record held (fam : family) (size sv : N) (g : format) (s : store) (w : view) (m : mainreg) : Prop := {
  hd_main : s_main s = Some m;
  hd_full : HEADER_OFFSET <= m_len m;
  hd_hdr : m_hdr m = hdr_of sv g;
  hd_aligned : aligned fam size m;
  hd_aux : aux_wf fam s;
  hd_open : after_open fam s = s;
  hd_view : view_of fam s m = w }.
Unset Implicit Arguments.
Definition holds (fam : family) (size sv : N) (g : format) (s : store) (w : view) : Prop :=
  exists m, held fam size sv g s w m.

Lemma holds_match fam size sv g s w : holds fam size sv g s w -> import_core fam size s sv g = (s, Ok w).
Proof.
  intros (m & H). rewrite <- (hd_view H).
  rewrite (import_core_ok fam size s sv g s m), (hd_open H); [reflexivity| |exact (hd_aligned H)|exact (hd_aux H)].
  rewrite (import_base_full s m sv g (hd_main H) (hd_full H)). now rewrite (proj2 (verify_ok_iff _ _ _) (hd_hdr H)).
Qed.

Lemma holds_mismatch fam size sv g s w fam' size' rv f :
  holds fam size sv g s w -> rv <> sv \/ f <> g ->
  import_core fam' size' s rv f = (s, Err (if sv =? rv then DifferentFormat else DifferentVersion)).
Proof.
  intros (m & H) Hn. apply (import_core_full_err fam' size' s m rv f _ (hd_main H) (hd_full H)).
  rewrite (hd_hdr H), verify_hdr_of. destruct (N.eqb_spec sv rv) as [->|]; [|reflexivity].
  destruct (N.eqb_spec (fcode g) (fcode f)) as [Ef|]; [|reflexivity]. apply fcode_inj in Ef. destruct Hn; congruence.
Qed.

Lemma run_entry_match_keeps oc size q s rv w :
  eff_req oc q = Ok rv -> holds (req_fam q) size rv (q_fmt q) s w -> run_entry oc size None q s = (s, Ok w).
Proof.
  intros He Hh. rewrite (run_entry_ok _ _ _ _ _ _ He). destruct (q_entry q); unfold retry, attempt; now rewrite (holds_match _ _ _ _ _ _ Hh).
Qed.

(* the store right after an entry point created the vector, by a first open or by the reset arm *)
Definition fresh (fam : family) (rv : N) (f : format) (s : store) : Prop :=
  s_main s = Some (fresh_main rv f) /\
  match fam with Raw => s_holes s = None | Comp => s_pages s = Some {| a_len := 0; a_data := [] |} end.

Lemma mod_mul_l a b : (b * a) mod b = 0.
Proof. destruct (N.eq_dec b 0) as [->|Hb]; [reflexivity|]. rewrite N.mul_comm. now apply N.mod_mul. Qed.

Lemma fill_holds size clen q rv d h o :
  fresh (req_fam q) rv (q_fmt q) o ->
  holds (req_fam q) size rv (q_fmt q) (fill (req_fam q) size clen d (eff_holes q h) o) (expected_view q d h).
Proof.
  unfold expected_view, eff_holes. destruct o as [mm pp hh]. intros [Hm Ha]. cbn [s_main s_holes s_pages] in Hm, Ha. subst mm.
  unfold holds, fill. cbn [s_main]. destruct (req_fam q).
  (* each `split` below: the clauses of `held` in its order (main, full, hdr, aligned, aux, open, view) *)
  - (* raw: the data area is size * len d bytes, the holes region absent or SIZE_OF_USIZE * len h bytes *)
    subst hh. assert (Hal : (HEADER_OFFSET + size * len d - HEADER_OFFSET) mod size = 0)
      by (rewrite N.add_comm, N.add_sub; apply mod_mul_l).
    destruct h as [|x h]; eexists;
      (split; [reflexivity|apply N.le_add_r|reflexivity|exact Hal| |reflexivity|reflexivity]).
    + exact I.
    + apply mod_mul_l.
  - (* compressed: `fresh` left an empty page index, so opening creates nothing; one index entry counts len d values *)
    subst pp. destruct d as [|x d]; eexists.
    + split; [reflexivity|apply N.le_refl|reflexivity|exact I|reflexivity|reflexivity|reflexivity].
    + split; [reflexivity|apply N.le_add_r|reflexivity|exact I|reflexivity|reflexivity|].
      cbn [view_of pages_list s_pages with_pages a_data sumN m_data]. f_equal. rewrite N.add_0_r. apply take_all, N.le_refl.
Qed.

(* writing again replaces what the first write left, unless it writes nothing where the first wrote something *)
Lemma fill_fill fam size clen clen' d d' h h' o m :
  s_main o = Some m -> (h' = [] -> h = []) -> (fam = Comp -> d' = [] -> d = []) ->
  fill fam size clen' d' h' (fill fam size clen d h o) = fill fam size clen' d' h' o.
Proof.
  intros Hm Hh Hd. unfold fill. destruct o as [mm pp hh]; cbn [s_main] in Hm; subst mm. destruct fam.
  - destruct h' as [|x h']; [rewrite (Hh eq_refl)|destruct h]; reflexivity.
  - destruct d' as [|x d']; [rewrite (Hd eq_refl eq_refl)|destruct d]; reflexivity.
Qed.

Definition opened (fam : family) (rv : N) (f : format) : store :=
  after_open fam (with_main empty_store (Some (fresh_main rv f))).

Lemma opened_fresh fam rv f : fresh fam rv f (opened fam rv f).
Proof. now destruct fam. Qed.

Lemma created_eff oc size clen q d h s : created oc size clen q d h = Some s -> exists sv, eff_req oc q = Ok sv.
Proof.
  unfold created. destruct (eff_req oc q) as [sv|e|] eqn:E; [eauto|now apply eff_not_err in E|].
  now rewrite (run_entry_eff_panic _ _ _ _ _ E).
Qed.

Lemma created_open oc size clen q d h s sv :
  created oc size clen q d h = Some s -> eff_req oc q = Ok sv ->
  s = fill (req_fam q) size clen d (eff_holes q h) (opened (req_fam q) sv (q_fmt q)).
Proof.
  unfold created. intros H E. rewrite (run_entry_ok _ _ _ _ _ _ E) in H.
  destruct (q_entry q); unfold retry, attempt in H; (rewrite import_core_fresh in H; [|exact I|now destruct (req_fam q)]);
    now injection H.
Qed.

Lemma created_holds oc size clen q d h s sv :
  created oc size clen q d h = Some s -> eff_req oc q = Ok sv ->
  holds (req_fam q) size sv (q_fmt q) s (expected_view q d h).
Proof. intros Hc He. rewrite (created_open _ _ _ _ _ _ _ _ Hc He). apply fill_holds, opened_fresh. Qed.

Definition u32 (v : N) : Prop := v < two32.
Definition external (fault : option ekind) : Prop :=
  fault = None \/ fault = Some TryLock \/ fault = Some IO \/ fault = Some RawDB.

Theorem match_keeps_effective oc size clen q1 q2 d h s sv :
  0 < size -> created oc size clen q1 d h = Some s ->
  eff_req oc q1 = Ok sv -> eff_req oc q2 = Ok sv -> q_fmt q2 = q_fmt q1 ->
  run_entry oc size None q2 s = (s, Ok (expected_view q1 d h)).
Proof.
  intros _ Hc H1 H2 Hf. apply (run_entry_match_keeps oc size q2 s sv _ H2).
  unfold req_fam. rewrite Hf. now apply (created_holds oc size clen q1 d h s sv).
Qed.

Theorem plain_mismatch_effective oc size clen q1 q2 d h s sv rv :
  created oc size clen q1 d h = Some s -> q_entry q2 = EImport ->
  eff_req oc q1 = Ok sv -> eff_req oc q2 = Ok rv -> (rv <> sv \/ q_fmt q2 <> q_fmt q1) ->
  run_entry oc size None q2 s = (s, Err DifferentVersion) \/
  run_entry oc size None q2 s = (s, Err DifferentFormat).
Proof.
  intros Hc He H1 H2 Hn. pose proof (created_holds _ _ _ _ _ _ _ _ Hc H1) as Hh.
  rewrite (run_entry_ok _ _ _ _ _ _ H2), He. cbn [attempt].
  rewrite (holds_mismatch _ _ _ _ _ _ (req_fam q2) size rv (q_fmt q2) Hh Hn). destruct (sv =? rv); auto.
Qed.

Lemma reset_no_main fam s : no_main (reset_regions fam s).
Proof. destruct fam, s; exact I. Qed.
Lemma reset_aux_wf fam s : aux_wf fam (reset_regions fam s).
Proof. destruct fam, s; exact I. Qed.
Lemma reset_fresh_view fam s : fresh_view fam (reset_regions fam s) = empty_view.
Proof. destruct fam, s; reflexivity. Qed.

Lemma forced_mismatch_created oc size clen q1 q2 d h s sv rv :
  created oc size clen q1 d h = Some s -> q_entry q2 = EForced ->
  eff_req oc q1 = Ok sv -> eff_req oc q2 = Ok rv -> (rv <> sv \/ q_fmt q2 <> q_fmt q1) ->
  exists s', run_entry oc size None q2 s = (s', Ok empty_view) /\ fresh (req_fam q2) rv (q_fmt q2) s'.
Proof.
  intros Hc He H1 H2 Hn. pose proof (created_holds _ _ _ _ _ _ _ _ Hc H1) as Hh.
  rewrite (run_entry_ok _ _ _ _ _ _ H2), He. unfold retry, attempt.
  rewrite (holds_mismatch _ _ _ _ _ _ (req_fam q2) size rv (q_fmt q2) Hh Hn), resets_mismatch by (destruct (sv =? rv); auto).
  rewrite import_core_fresh, reset_fresh_view by (apply reset_no_main || apply reset_aux_wf).
  eexists. split; [reflexivity|]. now destruct (req_fam q2), s.
Qed.

Theorem forced_mismatch_effective oc size clen q1 q2 d h s sv rv :
  created oc size clen q1 d h = Some s -> q_entry q2 = EForced ->
  eff_req oc q1 = Ok sv -> eff_req oc q2 = Ok rv -> (rv <> sv \/ q_fmt q2 <> q_fmt q1) ->
  exists s', run_entry oc size None q2 s = (s', Ok empty_view) /\
             s_main s' = Some (fresh_main rv (q_fmt q2)) /\
             (req_fam q2 = Raw -> s_holes s' = None).
Proof.
  intros Hc He H1 H2 Hn. destruct (forced_mismatch_created oc size clen q1 q2 d h s sv rv Hc He H1 H2 Hn) as (s' & E & Hm & Ha).
  exists s'. split; [exact E|]. split; [exact Hm|]. intros Hr. now rewrite Hr in Ha.
Qed.

Lemma external_no_reset fam fault k : external fault -> fault = Some k -> resets fam k = false.
Proof.
  intros [->|[->|[->| ->]]]; try discriminate; intros [= <-]; destruct fam; reflexivity.
Qed.

Theorem forced_only_if_effective oc size clen q1 q2 d h s fault s' r :
  created oc size clen q1 d h = Some s -> q_entry q2 = EForced -> external fault ->
  run_entry oc size fault q2 s = (s', r) -> s_main s' <> s_main s ->
  fault = None /\
  exists sv rv, eff_req oc q1 = Ok sv /\ eff_req oc q2 = Ok rv /\ (rv <> sv \/ q_fmt q2 <> q_fmt q1).
Proof.
  intros Hc He Hx Hr Hch. destruct (created_eff _ _ _ _ _ _ _ Hc) as (sv & H1).
  destruct (created_holds _ _ _ _ _ _ _ _ Hc H1) as (m & H).
  pose proof (hd_main H) as Hm. pose proof (hd_full H) as Hl. pose proof (hd_hdr H) as Hh. pose proof (hd_aux H) as Hw.
  unfold run_entry in Hr. rewrite He, Hm in *.
  destruct (forced_changes_only_if _ _ _ _ _ _ _ _ _ m Hr Hm Hl Hch) as [(k & -> & Hk)|(-> & rv & H2 & Hd)].
  - now rewrite (external_no_reset _ _ _ Hx eq_refl) in Hk.
  - split; [reflexivity|]. exists sv, rv. split; [exact H1|]. assert (H2' : eff_req oc q2 = Ok rv) by (unfold eff_req; now rewrite He). split; [exact H2'|].
    destruct (N.eq_dec rv sv) as [->|]; [right|now left]. intros Ef. unfold req_fam in Hw. rewrite <- Ef in *.
    destruct Hd as [Hd|Hd]; [now apply Hd|now apply Hd].
Qed.

Theorem forced_keeps_on_external_error oc fam size s v f k :
  k = TryLock \/ k = IO \/ k = RawDB \/ k = CorruptedRegion \/ k = InvalidFormat ->
  forced_import_with oc fam size (Some k) s v f = (s, Err k) \/
  forced_import_with oc fam size (Some k) s v f = (s, Panic).
Proof. intros Hk. apply forced_fault_passthrough. now apply resets_unlisted. Qed.

Lemma same_entry_eff oc q1 q2 sv rv :
  q_entry q1 = q_entry q2 -> u32 (q_ver q1) -> u32 (q_ver q2) ->
  eff_req oc q1 = Ok sv -> eff_req oc q2 = Ok rv ->
  (q_ver q2 <> q_ver q1 \/ q_fmt q2 <> q_fmt q1) -> (rv <> sv \/ q_fmt q2 <> q_fmt q1).
Proof.
  intros He U1 U2 H1 H2 [Hv|Hf]; auto.
  destruct (N.eq_dec rv sv) as [->|]; auto. right. intros Ef. apply Hv.
  unfold eff_req in *. rewrite Ef, <- He in H2. exact (eff_inj _ _ _ _ _ _ U2 U1 H2 H1).
Qed.

(* The property, user level.  `*_full_stmt` is the statement of properties.jsonl (versions and formats as the USER passes them);
   it is refuted by the cross-entry-point class; for requests outside that class it is proved. *)
Definition SameEntry (q1 q2 : req) : Prop := KnownClass_b q1 q2 = false.

Lemma same_entry_eq q1 q2 : SameEntry q1 q2 -> q_entry q1 = q_entry q2.
Proof. unfold SameEntry, KnownClass_b. destruct (q_entry q1), (q_entry q2); cbn; congruence. Qed.

Definition match_keeps_full_stmt : Prop :=
  forall oc size clen q1 q2 d h s,
    0 < size -> created oc size clen q1 d h = Some s ->
    q_ver q2 = q_ver q1 -> q_fmt q2 = q_fmt q1 -> eff_req oc q2 <> Panic ->
    run_entry oc size None q2 s = (s, Ok (expected_view q1 d h)).

Definition plain_mismatch_full_stmt : Prop :=
  forall oc size clen q1 q2 d h s,
    u32 (q_ver q1) -> u32 (q_ver q2) -> created oc size clen q1 d h = Some s ->
    q_entry q2 = EImport -> (q_ver q2 <> q_ver q1 \/ q_fmt q2 <> q_fmt q1) -> eff_req oc q2 <> Panic ->
    run_entry oc size None q2 s = (s, Err DifferentVersion) \/
    run_entry oc size None q2 s = (s, Err DifferentFormat).

Definition forced_mismatch_full_stmt : Prop :=
  forall oc size clen q1 q2 d h s,
    u32 (q_ver q1) -> u32 (q_ver q2) -> created oc size clen q1 d h = Some s ->
    q_entry q2 = EForced -> (q_ver q2 <> q_ver q1 \/ q_fmt q2 <> q_fmt q1) -> eff_req oc q2 <> Panic ->
    exists s' rv, run_entry oc size None q2 s = (s', Ok empty_view) /\
                  s_main s' = Some (fresh_main rv (q_fmt q2)).

Definition forced_only_if_full_stmt : Prop :=
  forall oc size clen q1 q2 d h s fault s' r,
    u32 (q_ver q1) -> u32 (q_ver q2) -> created oc size clen q1 d h = Some s ->
    q_entry q2 = EForced -> external fault ->
    run_entry oc size fault q2 s = (s', r) -> s_main s' <> s_main s ->
    q_ver q2 <> q_ver q1 \/ q_fmt q2 <> q_fmt q1.

Lemma eff_ok_of oc q : eff_req oc q <> Panic -> exists rv, eff_req oc q = Ok rv.
Proof.
  intros H. destruct (eff_req oc q) eqn:E; eauto; [|contradiction].
  now apply eff_not_err in E.
Qed.

Theorem match_keeps_same_entry oc size clen q1 q2 d h s :
  SameEntry q1 q2 ->
  0 < size -> created oc size clen q1 d h = Some s ->
  q_ver q2 = q_ver q1 -> q_fmt q2 = q_fmt q1 ->
  run_entry oc size None q2 s = (s, Ok (expected_view q1 d h)).
Proof.
  intros Hs Hz Hc Hv Hf. apply same_entry_eq in Hs.
  destruct (created_eff _ _ _ _ _ _ _ Hc) as (sv & H1).
  eapply match_keeps_effective; eauto.
  unfold eff_req in *. now rewrite <- Hs, Hv, Hf.
Qed.

Theorem plain_mismatch_same_entry oc size clen q1 q2 d h s :
  SameEntry q1 q2 ->
  u32 (q_ver q1) -> u32 (q_ver q2) -> created oc size clen q1 d h = Some s ->
  q_entry q2 = EImport -> (q_ver q2 <> q_ver q1 \/ q_fmt q2 <> q_fmt q1) -> eff_req oc q2 <> Panic ->
  run_entry oc size None q2 s = (s, Err DifferentVersion) \/
  run_entry oc size None q2 s = (s, Err DifferentFormat).
Proof.
  intros Hs U1 U2 Hc He Hn Hp. apply same_entry_eq in Hs.
  destruct (created_eff _ _ _ _ _ _ _ Hc) as (sv & H1). destruct (eff_ok_of _ _ Hp) as (rv & H2).
  eapply plain_mismatch_effective; eauto. eapply same_entry_eff; eauto.
Qed.

Theorem forced_mismatch_same_entry oc size clen q1 q2 d h s :
  SameEntry q1 q2 ->
  u32 (q_ver q1) -> u32 (q_ver q2) -> created oc size clen q1 d h = Some s ->
  q_entry q2 = EForced -> (q_ver q2 <> q_ver q1 \/ q_fmt q2 <> q_fmt q1) -> eff_req oc q2 <> Panic ->
  exists s' rv, run_entry oc size None q2 s = (s', Ok empty_view) /\
                s_main s' = Some (fresh_main rv (q_fmt q2)).
Proof.
  intros Hs U1 U2 Hc He Hn Hp. apply same_entry_eq in Hs.
  destruct (created_eff _ _ _ _ _ _ _ Hc) as (sv & H1). destruct (eff_ok_of _ _ Hp) as (rv & H2).
  destruct (forced_mismatch_effective oc size clen q1 q2 d h s sv rv Hc He H1 H2) as (s' & E & Em & _).
  { eapply same_entry_eff; eauto. }
  exists s', rv. split; auto.
Qed.

Theorem forced_only_if_same_entry oc size clen q1 q2 d h s fault s' r :
  SameEntry q1 q2 ->
  created oc size clen q1 d h = Some s ->
  q_entry q2 = EForced -> external fault ->
  run_entry oc size fault q2 s = (s', r) -> s_main s' <> s_main s ->
  q_ver q2 <> q_ver q1 \/ q_fmt q2 <> q_fmt q1.
Proof.
  intros Hs Hc He Hx Hr Hch. apply same_entry_eq in Hs.
  destruct (forced_only_if_effective _ _ _ _ _ _ _ _ _ _ _ Hc He Hx Hr Hch) as (_ & sv & rv & H1 & H2 & Hd).
  destruct (N.eq_dec (q_ver q2) (q_ver q1)) as [Ev|]; auto.
  right. intros Ef. destruct Hd as [Hd|Hd]; [|contradiction].
  apply Hd. unfold eff_req in *. rewrite <- Hs, Ev, Ef, H1 in H2. congruence.
Qed.

(* refuted inside the class (each witness is also a replay of the differential engine) *)
Definition w_import (v : N) := {| q_entry := EImport; q_ver := v; q_fmt := FBytes |}.
Definition w_forced (v : N) := {| q_entry := EForced; q_ver := v; q_fmt := FBytes |}.

Definition wstore (q : req) (d h : list N) : store :=
  match created false 4 20 q d h with Some s => s | None => empty_store end.

Theorem match_keeps_full_refuted : ~ match_keeps_full_stmt.
Proof.
  intros F.
  (* import(10) then forced_import(10): Ok, but empty *)
  pose proof (F false 4 20 (w_import 10) (w_forced 10) [7;8;9] [] (wstore (w_import 10) [7;8;9] [])
                eq_refl eq_refl eq_refl eq_refl ltac:(discriminate)) as E.
  vm_compute in E. discriminate.
Qed.

Theorem match_keeps_full_refuted_rejects : 
  run_entry false 4 None (w_import 10) (wstore (w_forced 10) [7;8;9] []) =
  (wstore (w_forced 10) [7;8;9] [], Err DifferentVersion).
Proof. vm_compute. reflexivity. Qed.

Theorem plain_mismatch_full_refuted : ~ plain_mismatch_full_stmt.
Proof.
  intros F.
  (* forced_import(10) then import(11): the old data is served under the new version *)
  destruct (F false 4 20 (w_forced 10) (w_import 11) [7;8;9] [] (wstore (w_forced 10) [7;8;9] [])
              eq_refl eq_refl eq_refl eq_refl ltac:(left; discriminate) ltac:(discriminate)) as [E|E];
    vm_compute in E; discriminate.
Qed.

Theorem forced_mismatch_full_refuted : ~ forced_mismatch_full_stmt.
Proof.
  intros F.
  (* import(10) then forced_import(9): keeps the data of the other version *)
  destruct (F false 4 20 (w_import 10) (w_forced 9) [7;8;9] [] (wstore (w_import 10) [7;8;9] [])
              eq_refl eq_refl eq_refl eq_refl ltac:(left; discriminate) ltac:(discriminate)) as (s' & rv & E & _).
  vm_compute in E. discriminate.
Qed.

(* the second removal of the reset arm (/repo 5d157a9) at work: forced_import(10) with deleted slots
   1 and 3, reopened by forced_import(11): the holes region is gone and freshly pushed values are
   all visible.  With RAW_FORCED_REMOVES_HOLES = false this example (and reset_aux_wf) fails. *)
Example forced_reset_removes_holes :
  let s := wstore (w_forced 10) [7;8;9;10;11] [1;3] in
  s_holes s <> None /\
  exists s', run_entry false 4 None (w_forced 11) s = (s', Ok empty_view) /\ s_holes s' = None /\
             probe empty_view [60000; 60001; 60002; 60003] = [Some 60000; Some 60001; Some 60002; Some 60003].
Proof.
  cbv zeta. split; [vm_compute; discriminate|].
  eexists. repeat apply conj; vm_compute; reflexivity.
Qed.

Theorem forced_only_if_full_refuted : ~ forced_only_if_full_stmt.
Proof.
  intros F.
  (* import(10) then forced_import(10): main region replaced although nothing differs *)
  destruct (F false 4 20 (w_import 10) (w_forced 10) [7;8;9] [] (wstore (w_import 10) [7;8;9] []) None
              (fst (run_entry false 4 None (w_forced 10) (wstore (w_import 10) [7;8;9] [])))
              (snd (run_entry false 4 None (w_forced 10) (wstore (w_import 10) [7;8;9] [])))
              eq_refl eq_refl eq_refl eq_refl (or_introl eq_refl)) as [E|E].
  - vm_compute. reflexivity.
  - vm_compute. discriminate.
  - now apply E.
  - now apply E.
Qed.

Lemma witnesses_in_class :
  KnownClass_b (w_import 10) (w_forced 10) = true /\ KnownClass_b (w_forced 10) (w_import 11) = true /\
  KnownClass_b (w_import 10) (w_forced 9) = true /\ KnownClass_b (w_forced 10) (w_import 10) = true.
Proof. repeat split. Qed.

(* the model's own spec oracle on the witnesses (what the OCaml side would flag) *)
Lemma spec_oracle_flags_witness :
  spec_ok (w_import 10) (w_forced 10) [7;8;9] [] (wstore (w_import 10) [7;8;9] [])
          (run_entry false 4 None (w_forced 10) (wstore (w_import 10) [7;8;9] [])) = false /\
  spec_ok (w_import 10) (w_import 10) [7;8;9] [] (wstore (w_import 10) [7;8;9] [])
          (run_entry false 4 None (w_import 10) (wstore (w_import 10) [7;8;9] [])) = true.
Proof. split; vm_compute; reflexivity. Qed.

Theorem reset_then_same_request_keeps oc size clen q1 q2 d h s sv rv :
  0 < size -> created oc size clen q1 d h = Some s -> q_entry q2 = EForced ->
  eff_req oc q1 = Ok sv -> eff_req oc q2 = Ok rv -> (rv <> sv \/ q_fmt q2 <> q_fmt q1) ->
  exists s', run_entry oc size None q2 s = (s', Ok empty_view) /\
    forall clen' d' h',
      run_entry oc size None q2 (fill (req_fam q2) size clen' d' (eff_holes q2 h') s') =
      (fill (req_fam q2) size clen' d' (eff_holes q2 h') s', Ok {| v_data := d'; v_holes := eff_holes q2 h' |}).
Proof.
  intros _ Hc He H1 H2 Hn. destruct (forced_mismatch_created oc size clen q1 q2 d h s sv rv Hc He H1 H2 Hn) as (s' & E & Hf).
  exists s'. split; [exact E|]. intros clen' d' h'. apply (run_entry_match_keeps oc size q2 _ rv _ H2). now apply fill_holds.
Qed.

Theorem extend_then_same_request_keeps oc size clen clen' q1 q2 d h s sv d' h' :
  0 < size -> created oc size clen q1 d h = Some s ->
  eff_req oc q1 = Ok sv -> eff_req oc q2 = Ok sv -> q_fmt q2 = q_fmt q1 ->
  (eff_holes q2 h' = [] -> eff_holes q1 h = []) ->          (* deleted slots are not all un-deleted *)
  (req_fam q2 = Comp -> d' = [] -> d = []) ->                (* a compressed vector is not emptied *)
  run_entry oc size None q2 (fill (req_fam q2) size clen' d' (eff_holes q2 h') s) =
  (fill (req_fam q2) size clen' d' (eff_holes q2 h') s, Ok {| v_data := d'; v_holes := eff_holes q2 h' |}).
Proof.
  intros _ Hc H1 H2 Hf Hho Hde. rewrite (created_open _ _ _ _ _ _ _ _ Hc H1).
  assert (Hfam : req_fam q1 = req_fam q2) by (unfold req_fam; now rewrite Hf). rewrite Hfam, <- Hf.
  rewrite (fill_fill _ _ _ _ _ _ _ _ _ _ (proj1 (opened_fresh _ _ _)) Hho Hde).
  apply (run_entry_match_keeps oc size q2 _ sv _ H2), fill_holds, opened_fresh.
Qed.

(* satisfiability of the premises *)
Example created_example :
  created true 4 20 (w_import 10) [7;8;9] [1] <> None /\ SameEntry (w_import 10) (w_import 10) /\
  eff_req true (w_forced 10) = Ok 12 /\ eff_req true (w_import 4294967295) = Panic /\
  eff_req false (w_import 4294967295) = Ok 0.
Proof. repeat split; vm_compute; discriminate. Qed.
