(* `C04_small_scope`, closed by vm_compute of `sweep` (sound by `sweep_sound`): EVERY disciplined history up to
   length 5 over the alphabet `alpha_c04` of 11 operations (177 156 histories, rollbacks of truncating commits
   among them), for retention 1 and 2, agrees with the reference vector after every step (results, contents incl.
   deleted slots, length, stamp).  The unbounded RvChain.strict_agree covers edits, commits, and rollback /
   rollback_before from committed states, but not a plain write / flush / re-import between commits; of these the
   alphabet has Reimport. *)
From Anydb Require Import Common.Base Vec.RvInst Vec.RvFindings.

Lemma all_hist_cons alpha n o t : In (o :: t) (all_hist alpha (S n)) -> In o alpha /\ In t (all_hist alpha n).
Proof.
  cbn [all_hist]. intros [H|H]; [discriminate|]. apply in_flat_map in H as (t' & Ht & H).
  apply in_map_iff in H as (o' & [= -> ->] & Ho). auto.
Qed.
Lemma all_hist_mono alpha n : forall h, In h (all_hist alpha n) -> In h (all_hist alpha (S n)).
Proof.
  induction n as [|n IH]; intros [|o t] H; try (now left).
  - destruct H as [H|[]]. discriminate.
  - apply all_hist_cons in H as [Ho Ht]. right. apply in_flat_map. exists t. split; [apply IH, Ht|exact (in_map (fun o => o :: t) _ _ Ho)].
Qed.

(* what the two machines and the discipline carry along a history: edited since the last commit, model, reference *)
Definition triple : Type := bool * w_rv * w_sv.
Definition triple_eq_dec (x y : triple) : {x = y} + {x <> y}.
Proof. repeat decide equality. Defined.
Definition known (x : triple) (seen : list triple) : bool := existsb (fun y => if triple_eq_dec x y then true else false) seen.
Lemma known_In x seen : known x seen = true -> In x seen.
Proof. intros H. apply existsb_exists in H as (y & Hy & E). now destruct (triple_eq_dec x y) as [->|]. Qed.

(* [sweep] walks the tree of histories depth first, so that the two machines run each prefix once, and leaves a
   subtree as soon as its root is undisciplined (every history below is undisciplined too).
   Nor is every disciplined subtree walked: the histories of length <= m from a triple are among those of length
   <= m + 1 from the same triple, and what holds of them holds wherever the triple is met again.  So nothing is
   done below a step that leaves the triple as it was, nor below a triple in [seen]: one on which an earlier
   operation of this node, of its parent, and so on upwards, has landed and which [below] has accepted, with at
   least as many steps to go.  At the last level ([leaf]) there is no subtree to save, and the comparison is left
   out. *)
Fixpoint scan (leaf : bool) (below : list triple -> bool -> w_rv -> w_sv -> bool) (e : bool) (s : w_rv) (a : w_sv)
    (l : list w_op) (seen : list triple) : bool :=
  match l with
  | [] => true
  | o :: l' =>
    if op_disciplined e a o then
      let '(s', r) := u64_step s o in
      let '(a', r') := w_sstep a o in
      let x' := (next_edited e o, s', a') in
      res_agree a o r r' && state_agree s' a' &&
      (if leaf then scan leaf below e s a l' seen
       else if known x' ((e, s, a) :: seen) then scan leaf below e s a l' seen
       else below seen (next_edited e o) s' a' && scan leaf below e s a l' (x' :: seen))
    else scan leaf below e s a l' seen
  end.
Fixpoint sweep (alpha : list w_op) (n : nat) (seen : list triple) (e : bool) (s : w_rv) (a : w_sv) : bool :=
  match n with
  | O => true
  | S m => scan (match m with O => true | _ => false end) (sweep alpha m) e s a alpha seen
  end.

Definition covered (alpha : list w_op) (n : nat) (x : triple) : Prop :=
  let '(e, s, a) := x in
  forall h, In h (all_hist alpha n) -> disciplined_from e a h = true -> agree_from s a h = true.
Lemma covered_mono alpha n x : covered alpha (S n) x -> covered alpha n x.
Proof. destruct x as [[e s] a]. intros H h Hin. apply H, all_hist_mono, Hin. Qed.

(* [P]: what is known of a triple in [seen], and of one that [below] accepts *)
Lemma scan_sound (P : triple -> Prop) leaf below e s a l : forall seen,
  scan leaf below e s a l seen = true ->
  (leaf = true -> forall x, P x) ->
  (forall seen' e' s' a', (forall x, In x seen' -> P x) -> below seen' e' s' a' = true -> P (e', s', a')) ->
  (forall x, In x seen -> P x) ->
  forall o, In o l -> op_disciplined e a o = true ->
  res_agree a o (snd (u64_step s o)) (snd (w_sstep a o)) && state_agree (fst (u64_step s o)) (fst (w_sstep a o)) = true /\
  let x' := (next_edited e o, fst (u64_step s o), fst (w_sstep a o)) in x' = (e, s, a) \/ P x'.
Proof.
  induction l as [|o' l IH]; intros seen Hs Hleaf Hbelow Hseen o Ho Hd; [destruct Ho|]. cbn [scan] in Hs.
  destruct (op_disciplined e a o') eqn:Hd'.
  2:{ destruct Ho as [<-|Ho]; [congruence|exact (IH seen Hs Hleaf Hbelow Hseen o Ho Hd)]. }
  destruct (u64_step s o') as [s' r] eqn:Es, (w_sstep a o') as [a' r'] eqn:Ea. apply andb_prop in Hs as [Hs1 Hs2].
  set (x' := (next_edited e o', s', a')) in *.
  assert (Hc : (x' = (e, s, a) \/ P x') /\ exists seen', scan leaf below e s a l seen' = true /\ forall x, In x seen' -> P x).
  { destruct leaf; [split; [right; apply Hleaf; reflexivity|now exists seen]|].
    destruct (known x' _) eqn:E.
    - apply known_In in E as [E|E]; (split; [|now exists seen]); [now left|right; now apply Hseen].
    - apply andb_prop in Hs2 as [Hb Hs2]. apply (Hbelow _ _ _ _ Hseen) in Hb. split; [now right|]. eexists. split; [exact Hs2|].
      intros x [<-|Hx]; [exact Hb|now apply Hseen]. }
  destruct Hc as (Hg & seen' & Hs' & Hseen'). destruct Ho as [<-|Ho]; [|exact (IH seen' Hs' Hleaf Hbelow Hseen' o Ho Hd)].
  rewrite Es, Ea. split; [exact Hs1|exact Hg].
Qed.

Lemma sweep_sound alpha n : forall seen e s a,
  (forall x, In x seen -> covered alpha n x) -> sweep alpha n seen e s a = true -> covered alpha n (e, s, a).
Proof.
  induction n as [|m IH]; intros seen e s a Hseen Hs h Hin Hd; [destruct Hin as [<-|[]]; reflexivity|]. cbn [sweep] in Hs.
  unshelve epose proof (scan_sound (covered alpha m) _ _ _ _ _ _ _ Hs _ IH _) as Step.
  { destruct m; [|discriminate]. intros _ [[e' s'] a'] t [<-|[]] _. reflexivity. }
  { intros x Hx. apply covered_mono, Hseen, Hx. }
  (* the histories that come back to (e, s, a) are shorter: induction on h at this node *)
  clear Hs. induction h as [|o t IHt]; [reflexivity|]. apply all_hist_cons in Hin as [Ho Ht].
  cbn [disciplined_from agree_from] in *. apply andb_prop in Hd as [Hd1 Hd2].
  destruct (Step o Ho Hd1) as [Hok Hc]. destruct (u64_step s o) as [s' r], (w_sstep a o) as [a' r']. cbn [fst snd] in *.
  rewrite Hok. destruct Hc as [[= He -> ->]|Hc]; [|exact (Hc t Ht Hd2)].
  rewrite He in Hd2. exact (IHt (all_hist_mono _ _ _ Ht) Hd2).
Qed.

Lemma small_c04_k1 : sweep alpha_c04 5 [] false (w_init 1) (w_sinit 1) = true. Proof. vm_compute. reflexivity. Qed.
Lemma small_c04_k2 : sweep alpha_c04 5 [] false (w_init 2) (w_sinit 2) = true. Proof. vm_compute. reflexivity. Qed.

Theorem C04_small_scope k0 h :
  (k0 = 1 \/ k0 = 2) -> In h (all_hist alpha_c04 5) -> disciplined k0 h = true -> agree k0 h = true.
Proof.
  intros [-> | ->]; [apply (sweep_sound _ _ [] _ _ _ (fun _ H => match H with end) small_c04_k1)|apply (sweep_sound _ _ [] _ _ _ (fun _ H => match H with end) small_c04_k2)].
Qed.
