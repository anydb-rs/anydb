(* Vec/RegionSpec.v — the ABSTRACT rawdb interface the vector models are written against
   (DESIGN.md 2.4, L4 "on top of the spec of L1").  A region is a named byte vector; the
   database is a finite map name -> bytes.  Rawdb/RegionLink.v proves that the allocator model
   gives each region exactly this interface.
   Source of the error rules: crates/rawdb/src/region.rs:111-166 (truncate, write_with),
   crates/rawdb/src/lib.rs:170-250 (create_region_if_needed, remove_region). *)
From Anydb Require Import Common.Base.

Inductive rerr := WriteOutOfBounds | TruncateInvalid | RegionNotFound.

Definition region := list N.      (* bytes *)

(* region.rs:65 write_at = write_with(data, Some(at), false):
   at > len -> Err WriteOutOfBounds; new_len = max (at + |data|) len; never shrinks *)
Definition r_write_at (r : region) (data : list N) (at_ : N) : res rerr region :=
  if len r <? at_ then Err WriteOutOfBounds
  else Ok (take at_ r ++ data ++ drop (at_ + len data) r).

(* region.rs:111 truncate: from = len -> Ok, from > len -> Err TruncateInvalid *)
Definition r_truncate (r : region) (n : N) : res rerr region :=
  if len r <? n then Err TruncateInvalid else Ok (take n r).

(* region.rs:133 truncate_write = write_with(data, Some(at), true): new_len = at + |data| *)
Definition r_truncate_write (r : region) (at_ : N) (data : list N) : res rerr region :=
  if len r <? at_ then Err WriteOutOfBounds
  else Ok (take at_ r ++ data).

Lemma r_write_at_len r d a r' : r_write_at r d a = Ok r' -> len r' = N.max (a + len d) (len r).
Proof.
  unfold r_write_at. destruct (len r <? a) eqn:E; [discriminate|]. intros [= <-].
  rewrite !len_app, len_take, len_drop. lia.
Qed.
Lemma r_truncate_len r n r' : r_truncate r n = Ok r' -> len r' = n.
Proof.
  unfold r_truncate. destruct (len r <? n) eqn:E; [discriminate|]. intros [= <-].
  rewrite len_take. lia.
Qed.
Lemma r_truncate_write_len r a d r' : r_truncate_write r a d = Ok r' -> len r' = a + len d.
Proof.
  unfold r_truncate_write. destruct (len r <? a) eqn:E; [discriminate|]. intros [= <-].
  rewrite len_app, len_take. lia.
Qed.
Lemma r_write_at_prefix r d a r' : r_write_at r d a = Ok r' -> take a r' = take a r.
Proof.
  unfold r_write_at. destruct (len r <? a) eqn:E; [discriminate|]. intros [= <-].
  unfold take. rewrite firstn_app. rewrite firstn_firstn, Nat.min_id.
  rewrite firstn_length. replace (N.to_nat a - Nat.min (N.to_nat a) (length r))%nat with O.
  - cbn. now rewrite app_nil_r.
  - unfold len in E. lia.
Qed.

(* the database as far as a raw vector uses it: named regions *)
Definition db := list (list N * region).     (* name (bytes) -> region; at most one entry per name *)
Fixpoint db_get (d : db) (name : list N) : option region :=
  match d with
  | [] => None
  | (n, r) :: t => if list_eq_dec N.eq_dec n name then Some r else db_get t name
  end.
Definition db_remove (d : db) (name : list N) : res rerr db :=
  match db_get d name with
  | None => Err RegionNotFound
  | Some _ => Ok (filter (fun p => if list_eq_dec N.eq_dec (fst p) name then false else true) d)
  end.
Definition db_create_if_needed (d : db) (name : list N) : db * region :=
  match db_get d name with
  | Some r => (d, r)
  | None => ((name, []) :: d, [])      (* NEW_REGION_LEN = 0 *)
  end.

(* change directory: None = the directory does not exist; otherwise stamp |-> file bytes *)
Definition cdir := option (list (N * list N)).
