(* Vec/CvInv.v — the invariant `InvG` of the compressed vector (DESIGN.md appendix B.2; the `PagesInv` of
   C07, its reading in terms of the page entries alone, follows from it: `Inv_PagesInv`) and what rests on it:
   every history without rollbacks refines the reference vector `spec` (relation `R`, `run_R`; C03, C07); the
   retained change records form a stack (`Chain`), and the histories of commits and rollbacks refine the snapshot
   stack `sspec` (`RC`, `chain_run`; C04, C16).

   Ghost view: the data region is  header bytes ++ blob_0 ++ blob_1 ++ …  where entry i of the on-disk
   index describes blob_i, and blob_i encodes the value list vals_i.  `InvG s hd ents mem` says so of the
   state s; `Inv s` is InvG for some hd, ents, mem.

   Props/C03comp, C04comp, C07 and C16comp quote lemmas of the section as they read once it is closed: a `Proof using`
   line is what fixes the hypotheses such a statement carries. *)
From Anydb Require Import Common.Base Common.LE Common.ListFacts Gen.Consts Gen.Sizes Codec.Vecdb Codec.VecdbProofs
  Vec.CvRegion Vec.CvPages Vec.CvPagesProofs Vec.CvModel Vec.CvLists Vec.CvCodec.

Section Inv.
  Variable T : Type.
  Variable size : N.
  Variable enc : T -> list N.
  Variable dec : list N -> T.
  Variable compress : N -> list T -> list cell.
  Variable decompress : list cell -> N -> option (list T).
  Variable fmt : N.
  Variable vver : N.

  Hypothesis size_pos : 0 < size.
  Hypothesis size_le : size <= MAX_UNCOMPRESSED_PAGE_SIZE.
  Hypothesis enc_len : forall t, len (enc t) = size.
  Hypothesis dec_enc : forall t, dec (enc t) = t.
  (* the external compressor: round trip (tested, not proved, for pco/lz4/zstd) and u32-sized output *)
  Hypothesis codec_rt : forall k l, decompress (compress k l) (len l) = Some l.
  Hypothesis compress_small : forall k l, len l <= MAX_UNCOMPRESSED_PAGE_SIZE / size -> len (compress k l) < two32.
  Hypothesis fmt_ok : format_code_ok fmt = true.
  Hypothesis vver_ok : vver < two32.

  (* The hypothesis lists of the quoted statements, whatever the proofs use: `Codec` for results about the model;
     `Bounds` (with the variable fmt) for those that are stated under the bounds on size and compressor although
     they speak of lists, the change directory or the reference alone. *)
  Collection Codec := size_pos size_le enc_len dec_enc codec_rt compress_small vver_ok.
  Collection Bounds := size_pos size_le codec_rt compress_small fmt vver_ok.

  Notation PP := (PER_PAGE size).
  Notation cvs := (cvs T).
  Notation values_to_bytes := (values_to_bytes T enc).

  Lemma PP_pos : 1 <= PP.
  Proof.
    unfold PER_PAGE. apply N.div_le_lower_bound; lia.
  Qed.
  Lemma PP_size : PP * size <= MAX_UNCOMPRESSED_PAGE_SIZE.
  Proof. unfold PER_PAGE. rewrite N.mul_comm. apply N.mul_div_le. lia. Qed.
  Lemma PP_small : PP <= MAX_UNCOMPRESSED_PAGE_SIZE.
  Proof. unfold PER_PAGE. apply N.div_le_upper_bound; nia. Qed.

  Record ent := mkEnt { e_pg : page; e_blob : list cell; e_vals : list T }.

  Definition ent_ok (e : ent) : Prop :=
    let p := e_pg e in
    len (e_blob e) = p_bytes p /\
    page_values_count p = len (e_vals e) /\
    1 <= len (e_vals e) /\ len (e_vals e) <= PP /\
    p_bytes p < two32 /\
    (page_is_raw p = true ->
       len (e_vals e) < PP /\ e_blob e = map CB (values_to_bytes (e_vals e)) /\
       p_values p = len (e_vals e) + RAW_FLAG) /\
    (page_is_raw p = false ->
       len (e_vals e) = PP /\ (exists k, e_blob e = compress k (e_vals e)) /\
       p_values p = len (e_vals e)).

  Definition blobs (l : list ent) : list cell := concat (map e_blob l).
  Definition vals (l : list ent) : list T := concat (map e_vals l).
  Definition pgs (l : list ent) : list page := map e_pg l.
  Definition ends (st : N) (l : list ent) : N := st + len (blobs l).

  Fixpoint chain (st : N) (l : list ent) : Prop :=
    match l with
    | [] => True
    | e :: t => p_start (e_pg e) = st /\ chain (st + len (e_blob e)) t
    end.

  Definition allfull (l : list ent) : Prop := Forall (fun e => len (e_vals e) = PP) l.
  (* every page but the last is full *)
  Definition nlf (l : list ent) : Prop := forall a b, l = a ++ b -> b <> [] -> allfull a.

  Lemma blobs_app a b : blobs (a ++ b) = blobs a ++ blobs b.
  Proof. unfold blobs. now rewrite map_app, concat_app. Qed.
  Lemma vals_app a b : vals (a ++ b) = vals a ++ vals b.
  Proof. unfold vals. now rewrite map_app, concat_app. Qed.
  Lemma pgs_app a b : pgs (a ++ b) = pgs a ++ pgs b.
  Proof. apply map_app. Qed.
  Lemma pgs_len l : len (pgs l) = len l.
  Proof. apply len_map. Qed.
  Lemma blobs_single e : blobs [e] = e_blob e.
  Proof. apply app_nil_r. Qed.
  Lemma vals_single e : vals [e] = e_vals e.
  Proof. apply app_nil_r. Qed.
  Lemma vals_nil : vals [] = [].
  Proof. reflexivity. Qed.
  Lemma vals_cons e l : vals (e :: l) = e_vals e ++ vals l.
  Proof. reflexivity. Qed.

  Lemma ends_app st a b : ends st (a ++ b) = ends (ends st a) b.
  Proof. unfold ends. rewrite blobs_app, len_app. lia. Qed.
  Lemma ends_nil st : ends st [] = st.
  Proof. apply N.add_0_r. Qed.
  Lemma ends_cons st e l : ends st (e :: l) = ends (st + len (e_blob e)) l.
  Proof. unfold ends. change (blobs (e :: l)) with (e_blob e ++ blobs l). rewrite len_app. lia. Qed.

  Lemma chain_app st a b : chain st (a ++ b) <-> chain st a /\ chain (ends st a) b.
  Proof.
    revert st; induction a as [|e a IH]; intros st.
    - cbn [app chain]. rewrite ends_nil. tauto.
    - cbn [app chain]. rewrite IH, ends_cons. tauto.
  Qed.
  Lemma chain_mid {st a e b} : chain st (a ++ e :: b) -> p_start (e_pg e) = ends st a.
  Proof. intros H. apply chain_app in H as [_ [H _]]. exact H. Qed.

  Lemma vals_allfull a : allfull a -> len (vals a) = len a * PP.
  Proof.
    induction 1 as [|e a He Ha IH]; [reflexivity|].
    rewrite vals_cons, len_app, len_cons, IH, He. lia.
  Qed.

  Lemma take_vals_split a b r : allfull a ->
    take (len a * PP + r) (vals (a ++ b)) = vals a ++ take r (vals b).
  Proof.
    intros Ha. rewrite vals_app, take_app_ge; rewrite (vals_allfull a Ha); [|lia].
    do 2 f_equal. lia.
  Qed.

  Lemma nlf_nil : nlf [].
  Proof. intros a b H. destruct a, b; try discriminate. congruence. Qed.
  Lemma nlf_single e : nlf [e].
  Proof.
    intros a b H Hb. destruct a as [|x a]; [constructor|].
    destruct a, b; try discriminate; congruence.
  Qed.

  Lemma nlf_app a b : allfull a -> nlf b -> nlf (a ++ b).
  Proof.
    intros Ha Hb x y H Hy.
    destruct (app_eq_app _ _ _ _ H) as (m & [[-> ->]|[-> ->]]).
    - apply Forall_app in Ha. tauto.
    - apply Forall_app. split; [exact Ha|]. now apply (Hb m y).
  Qed.

  Lemma nlf_prefix a b : nlf (a ++ b) -> nlf a.
  Proof using Type.
    intros H x y E Hy. apply (H x (y ++ b)).
    - rewrite E. now rewrite app_assoc.
    - destruct y; [congruence|discriminate].
  Qed.

  Lemma nlf_mid_full {a e b} : nlf (a ++ e :: b) -> b <> [] -> allfull (a ++ [e]).
  Proof. intros H Hb. apply (H _ b); [now rewrite <- app_assoc|exact Hb]. Qed.
  Lemma nlf_mid a e b : nlf (a ++ e :: b) -> b <> [] -> len (e_vals e) = PP.
  Proof. intros H Hb. exact (Forall_elt _ _ _ (nlf_mid_full H Hb)). Qed.

  Lemma ent_ok_bytes {e} : ent_ok e -> len (e_blob e) = p_bytes (e_pg e).
  Proof. now intros (H & _). Qed.
  Lemma ent_ok_count {e} : ent_ok e -> page_values_count (e_pg e) = len (e_vals e).
  Proof. now intros (_ & H & _). Qed.
  Lemma ent_ok_len {e} : ent_ok e -> 1 <= len (e_vals e) <= PP.
  Proof. now intros (_ & _ & H1 & H2 & _). Qed.
  Lemma ent_ok_raw {e} : ent_ok e -> page_is_raw (e_pg e) = true ->
    len (e_vals e) < PP /\ e_blob e = map CB (values_to_bytes (e_vals e)).
  Proof. intros (_ & _ & _ & _ & _ & H & _) E. destruct (H E) as (? & ? & _). auto. Qed.
  Lemma ent_ok_full {e} : ent_ok e -> page_is_raw (e_pg e) = false ->
    len (e_vals e) = PP /\ exists k, e_blob e = compress k (e_vals e).
  Proof. intros (_ & _ & _ & _ & _ & _ & H) E. destruct (H E) as (? & ? & _). auto. Qed.

  Lemma ent_ok_raw_intro st c : 1 <= len c -> len c < PP ->
    ent_ok (mkEnt (page_raw st (len (map CB (values_to_bytes c))) (len c)) (map CB (values_to_bytes c)) c).
  Proof.
    intros H1 H2. pose proof PP_size. pose proof MAXP_val.
    unfold ent_ok. cbn [e_pg e_blob e_vals]. rewrite count_page_raw, is_raw_page_raw.
    do 4 (split; [first [reflexivity|lia]|]). split; [|split; [now intros _|discriminate]].
    cbn [p_bytes page_raw]. rewrite len_map, (len_values_to_bytes enc_len). unfold two32. nia.
  Qed.
  Lemma ent_ok_full_intro st k c : len c = PP ->
    ent_ok (mkEnt (page_compressed st (len (compress k c)) (len c)) (compress k c) c).
  Proof.
    intros H. pose proof PP_pos. pose proof PP_small. pose proof MAXP_val. pose proof RAW_FLAG_val.
    unfold ent_ok. cbn [e_pg e_blob e_vals]. rewrite count_page_compressed, is_raw_page_compressed by lia.
    do 4 (split; [first [reflexivity|lia]|]). split; [apply compress_small; fold PP; lia|].
    split; [discriminate|]. intros _. eauto.
  Qed.

  Lemma ent_ok_valid e : ent_ok e -> p_start (e_pg e) < two64 -> valid_page (e_pg e) = true.
  Proof.
    intros (H1 & H2 & H3 & H4 & H5 & Hr & Hc) Hs.
    unfold valid_page. rewrite !andb_true_iff, !N.ltb_lt. repeat split; auto.
    pose proof PP_small. pose proof MAXP_val. pose proof RAW_FLAG_val. unfold two32.
    destruct (page_is_raw (e_pg e)) eqn:E.
    - destruct (Hr eq_refl) as (_ & _ & ->). lia.
    - destruct (Hc eq_refl) as (_ & _ & ->). lia.
  Qed.

  Lemma chain_start_le st l : chain st l -> Forall (fun e => p_start (e_pg e) <= ends st l) l.
  Proof.
    revert st; induction l as [|e l IH]; intros st H; [constructor|].
    destruct H as [H1 H2]. rewrite ends_cons. constructor.
    - unfold ends. lia.
    - apply IH. exact H2.
  Qed.

  Definition wfp (st : N) (l : list ent) : Prop := chain st l /\ Forall ent_ok l /\ nlf l.

  Lemma wfp_nil st : wfp st [].
  Proof. repeat split; [constructor|apply nlf_nil]. Qed.
  Lemma wfp_single st e : ent_ok e -> p_start (e_pg e) = st -> wfp st [e].
  Proof. intros He Hs. repeat split; [exact Hs|now constructor|apply nlf_single]. Qed.
  Lemma wfp_app st a b : wfp st a -> allfull a -> wfp (ends st a) b -> wfp st (a ++ b).
  Proof.
    intros (Ca & Oa & _) Ha (Cb & Ob & Nb).
    split; [now apply chain_app|]. split; [now apply Forall_app|now apply nlf_app].
  Qed.
  Lemma wfp_prefix st a b : wfp st (a ++ b) -> wfp st a.
  Proof.
    intros (C & O & Nl). apply chain_app in C as [C _]. apply Forall_app in O as [O _].
    exact (conj C (conj O (nlf_prefix a b Nl))).
  Qed.

  Lemma next_start_chain l : chain HEADER_OFFSET l -> Forall ent_ok l ->
    pages_next_start (pgs l) = ends HEADER_OFFSET l.
  Proof.
    intros Hc Ho. unfold pages_next_start.
    destruct (list_snoc_cases l) as [->|(l' & e & ->)].
    - cbn. now rewrite ends_nil.
    - rewrite pgs_app. change (pgs [e]) with [e_pg e]. rewrite last_opt_app, ends_app, ends_cons, ends_nil.
      unfold page_end. now rewrite (chain_mid Hc), (ent_ok_bytes (Forall_elt _ _ _ Ho)).
  Qed.

  Lemma stored_len_pgs l : Forall ent_ok l -> nlf l -> pages_stored_len PP (pgs l) = len (vals l).
  Proof.
    intros Ho Hn. unfold pages_stored_len.
    destruct (list_snoc_cases l) as [->|(l' & e & ->)]; [reflexivity|].
    pose proof (Hn l' [e] eq_refl ltac:(discriminate)) as Hf.
    rewrite pgs_app. change (pgs [e]) with [e_pg e].
    rewrite last_opt_app, (ent_ok_count (Forall_elt _ _ _ Ho)).
    rewrite vals_app, vals_single, !len_app, (vals_allfull l' Hf), pgs_len, len_cons, len_nil. lia.
  Qed.

  Lemma vals_le l : Forall ent_ok l -> len (vals l) <= len l * PP.
  Proof.
    induction 1 as [|e l He Hl IH]; [reflexivity|].
    rewrite vals_cons, len_app, len_cons. pose proof (ent_ok_len He). lia.
  Qed.

  Lemma vals_full_all l : Forall ent_ok l -> len (vals l) = len l * PP -> allfull l.
  Proof.
    induction 1 as [|e l He Hl IH]; intros H; [constructor|].
    pose proof (vals_le l Hl). pose proof (ent_ok_len He).
    rewrite vals_cons, len_app, len_cons in H. constructor; [lia|apply IH; lia].
  Qed.

  Definition hdr_ok (h : header) : Prop :=
    valid_header h = true /\ h_hv h = HEADER_VERSION /\ h_vv h = vver /\ h_format h = fmt.

  Lemma len_header_to_bytes h : len (header_to_bytes h) = HEADER_OFFSET.
  Proof.
    unfold header_to_bytes, format_to_bytes.
    rewrite !len_app, !len_enc_u32, len_enc_u64, len_repeat. cbn. reflexivity.
  Qed.

  (* the header's bytes stay folded from here on: a `cbn` that opened them would leave 32 literal cells where the rewrites
     below look for `map CB (header_to_bytes _)` *)
  Local Opaque header_to_bytes.

  Lemma len_hbytes h : len (map CB (header_to_bytes h)) = HEADER_OFFSET.
  Proof. now rewrite len_map, len_header_to_bytes. Qed.

  Lemma hdr_ok_stamp h st : hdr_ok h -> st < two64 ->
    hdr_ok (mkHeader (h_hv h) (h_vv h) (h_cv h) st (h_format h)).
  Proof.
    intros (V & H1 & H2 & H3) Hst. unfold hdr_ok. cbn [h_hv h_vv h_format]. repeat split; auto.
    unfold valid_header in *. cbn [h_hv h_vv h_cv h_stamp h_format].
    rewrite !andb_true_iff in *. destruct V as ((((V1 & V2) & V3) & V4) & V5).
    repeat split; auto. apply N.ltb_lt. exact Hst.
  Qed.

  (* hd = the header on disk, ents = the entries on disk, mem = the entries in memory (ents, or none after reset()) *)
  Definition InvG (s : cvs) (hd : header) (ents mem : list ent) : Prop :=
    hdr_ok (s_hdr s) /\ hdr_ok hd /\ (s_hdr_mod s = false -> hd = s_hdr s) /\
    s_data s = map CB (header_to_bytes hd) ++ blobs ents /\
    len (s_data s) <= MAX_RESERVED_SIZE /\
    pg_disk (s_pg s) = encode_pages (pgs ents) /\
    chain HEADER_OFFSET ents /\ Forall ent_ok ents /\ nlf ents /\
    pg_vec (s_pg s) = pgs mem /\
    ((pg_change_at (s_pg s) = None /\ mem = ents) \/ (pg_change_at (s_pg s) = Some 0 /\ mem = [])) /\
    s_stored_len s <= len (vals mem).

  Definition Inv (s : cvs) : Prop := exists hd ents mem, InvG s hd ents mem.

  Definition view (s : cvs) (mem : list ent) : list T :=
    take (s_stored_len s) (vals mem) ++ s_pushed s.

  Lemma InvG_frame s s' hd ents mem :
    s_hdr s' = s_hdr s -> s_hdr_mod s' = s_hdr_mod s -> s_data s' = s_data s -> s_pg s' = s_pg s ->
    s_stored_len s' <= len (vals mem) -> InvG s hd ents mem -> InvG s' hd ents mem.
  Proof. unfold InvG. intros -> -> -> -> H. tauto. Qed.

  Lemma InvG_intro (s : cvs) hd ents :
    s_hdr s = hd -> hdr_ok hd -> s_data s = map CB (header_to_bytes hd) ++ blobs ents ->
    len (s_data s) <= MAX_RESERVED_SIZE -> s_pg s = mkPages (pgs ents) None (encode_pages (pgs ents)) ->
    wfp HEADER_OFFSET ents -> s_stored_len s <= len (vals ents) ->
    InvG s hd ents ents.
  Proof.
    intros <- Hh Hd HL Hp (Hc & Ho & Hn) Hb. unfold InvG. rewrite Hp.
    exact (conj Hh (conj Hh (conj (fun _ => eq_refl) (conj Hd (conj HL (conj eq_refl (conj Hc (conj Ho (conj Hn
             (conj eq_refl (conj (or_introl (conj eq_refl eq_refl)) Hb))))))))))).
  Qed.

  Lemma InvG_hdr_ok {s hd ents mem} : InvG s hd ents mem -> hdr_ok (s_hdr s).
  Proof. now intros (H & _). Qed.
  Lemma InvG_hd_ok {s hd ents mem} : InvG s hd ents mem -> hdr_ok hd.
  Proof. now intros (_ & H & _). Qed.
  Lemma InvG_hd_eq {s hd ents mem} : InvG s hd ents mem -> s_hdr_mod s = false -> hd = s_hdr s.
  Proof. now intros (_ & _ & H & _). Qed.
  Lemma InvG_data_eq {s hd ents mem} : InvG s hd ents mem -> s_data s = map CB (header_to_bytes hd) ++ blobs ents.
  Proof. now intros (_ & _ & _ & H & _). Qed.
  Lemma InvG_data_le {s hd ents mem} : InvG s hd ents mem -> len (s_data s) <= MAX_RESERVED_SIZE.
  Proof. now intros (_ & _ & _ & _ & H & _). Qed.
  Lemma InvG_disk {s hd ents mem} : InvG s hd ents mem -> pg_disk (s_pg s) = encode_pages (pgs ents).
  Proof. now intros (_ & _ & _ & _ & _ & H & _). Qed.
  Lemma InvG_ents_wf {s hd ents mem} : InvG s hd ents mem -> wfp HEADER_OFFSET ents.
  Proof. now intros (_ & _ & _ & _ & _ & _ & Hc & Ho & Hn & _). Qed.
  Lemma InvG_vec {s hd ents mem} : InvG s hd ents mem -> pg_vec (s_pg s) = pgs mem.
  Proof. now intros (_ & _ & _ & _ & _ & _ & _ & _ & _ & H & _). Qed.
  Lemma InvG_mem {s hd ents mem} : InvG s hd ents mem ->
    (pg_change_at (s_pg s) = None /\ mem = ents) \/ (pg_change_at (s_pg s) = Some 0 /\ mem = []).
  Proof. now intros (_ & _ & _ & _ & _ & _ & _ & _ & _ & _ & H & _). Qed.
  Lemma InvG_bound {s hd ents mem} : InvG s hd ents mem -> s_stored_len s <= len (vals mem).
  Proof. now intros (_ & _ & _ & _ & _ & _ & _ & _ & _ & _ & _ & H). Qed.

  Lemma InvG_same s s' hd ents mem :
    s_hdr s' = s_hdr s -> s_hdr_mod s' = s_hdr_mod s -> s_data s' = s_data s -> s_pg s' = s_pg s ->
    s_stored_len s' = s_stored_len s -> InvG s hd ents mem -> InvG s' hd ents mem.
  Proof. intros Hh Hm Hd Hp Hl HI. apply (InvG_frame s); auto. rewrite Hl. apply (InvG_bound HI). Qed.

  Lemma InvG_stamp_lt {s hd ents mem} : InvG s hd ents mem -> cv_stamp s < two64.
  Proof.
    intros HI. destruct (InvG_hdr_ok HI) as (V & _). unfold valid_header in V. rewrite !andb_true_iff in V.
    destruct V as ((_ & V) & _). now apply N.ltb_lt in V.
  Qed.

  Lemma InvG_kept_prefix {s hd ents mem kept rest} : InvG s hd ents mem -> mem = kept ++ rest ->
    (exists rest2, ents = kept ++ rest2) /\ set_changed_at (pg_change_at (s_pg s)) (len kept) = Some (len kept).
  Proof.
    intros HI Hm. destruct (InvG_mem HI) as [[-> <-]|[-> E]]; [split; [eauto|reflexivity]|].
    rewrite E in Hm. symmetry in Hm. apply app_eq_nil in Hm as [-> _]. split; [now exists ents|reflexivity].
  Qed.

  Lemma InvG_data_hdr {s hd ents mem} : InvG s hd ents mem -> s_hdr_mod s = false ->
    s_data s = map CB (header_to_bytes (s_hdr s)) ++ blobs ents.
  Proof. intros HI Hm. rewrite <- (InvG_hd_eq HI Hm). exact (InvG_data_eq HI). Qed.

  Lemma InvG_mem_wf {s hd ents mem} : InvG s hd ents mem -> wfp HEADER_OFFSET mem.
  Proof.
    intros HI. destruct (InvG_mem HI) as [[_ ->]|[_ ->]]; [exact (InvG_ents_wf HI)|apply wfp_nil].
  Qed.

  Lemma InvG_data {s hd ents mem} : InvG s hd ents mem ->
    exists tail, s_data s = map CB (header_to_bytes hd) ++ blobs mem ++ tail.
  Proof.
    intros H. rewrite (InvG_data_eq H).
    destruct (InvG_mem H) as [[_ ->]|[_ ->]]; [exists []; now rewrite app_nil_r|now exists (blobs ents)].
  Qed.

  Lemma InvG_data_len {s hd ents mem} : InvG s hd ents mem -> len (s_data s) = ends HEADER_OFFSET ents.
  Proof. intros HI. now rewrite (InvG_data_eq HI), len_app, len_hbytes. Qed.

  Lemma InvG_set_hdr {s hd ents mem} s' hd' : InvG s hd ents mem ->
    hdr_ok (s_hdr s') -> hdr_ok hd' -> (s_hdr_mod s' = false -> hd' = s_hdr s') ->
    s_data s' = map CB (header_to_bytes hd') ++ blobs ents ->
    s_pg s' = s_pg s -> s_stored_len s' = s_stored_len s -> InvG s' hd' ents mem.
  Proof.
    intros HI H1 H2 H3 H4 Hp Hl. pose proof (InvG_data_le HI) as L. rewrite (InvG_data_len HI) in L.
    destruct HI as (_ & _ & _ & _ & _ & R). unfold InvG. rewrite Hp, Hl.
    refine (conj H1 (conj H2 (conj H3 (conj H4 (conj _ R))))). now rewrite H4, len_app, len_hbytes.
  Qed.

  Lemma InvG_forget {s hd ents mem} s' : InvG s hd ents mem ->
    s_hdr s' = s_hdr s -> s_hdr_mod s' = s_hdr_mod s -> s_data s' = s_data s ->
    s_pg s' = mkPages [] (Some 0) (pg_disk (s_pg s)) -> s_stored_len s' = 0 -> InvG s' hd ents [].
  Proof.
    unfold InvG. intros HI -> -> -> -> ->. cbn [pg_vec pg_change_at pg_disk].
    assert (0 <= len (vals [])) by apply N.le_0_l. tauto.
  Qed.

  Lemma InvG_real_stored_len {s hd ents mem} : InvG s hd ents mem ->
    real_stored_len T size s = len (vals mem).
  Proof.
    intros HI. destruct (InvG_mem_wf HI) as (_ & Mo & Mn).
    unfold real_stored_len. rewrite (InvG_vec HI). now apply stored_len_pgs.
  Qed.

  Lemma view_push s mem vs : view (set_pushed s (s_pushed s ++ vs)) mem = view s mem ++ vs.
  Proof. apply app_assoc. Qed.

  Lemma view_len s mem : s_stored_len s <= len (vals mem) -> len (view s mem) = cv_len s.
  Proof. intros H. unfold view, cv_len. rewrite len_app, len_take. lia. Qed.

  Lemma take_view s mem k : s_stored_len s <= len (vals mem) -> k <= s_stored_len s ->
    take k (view s mem) = take k (vals mem).
  Proof. intros Hb Hk. unfold view. now rewrite take_app_le, take_take by (rewrite ?len_take; lia). Qed.

  (* the state a successful write, commit or import leaves *)
  Set Implicit Arguments.
  Record Synced (s : cvs) (ents : list ent) : Prop := {
    sy_inv : InvG s (s_hdr s) ents ents;
    sy_hdr_mod : s_hdr_mod s = false;
    sy_stored : s_stored_len s = len (vals ents);
    sy_pushed : s_pushed s = [] }.
  Unset Implicit Arguments.

  Lemma view_synced s ents : Synced s ents -> view s ents = vals ents.
  Proof. intros Sy. unfold view. now rewrite (sy_stored Sy), (sy_pushed Sy), take_all, app_nil_r. Qed.

  Lemma InvG_pgs_valid {s hd ents mem} : InvG s hd ents mem -> Forall (fun p => valid_page p = true) (pgs ents).
  Proof.
    intros HI. destruct (InvG_ents_wf HI) as (Hc & Ho & _). pose proof (InvG_data_le HI) as HL.
    apply Forall_forall. intros p Hp. apply in_map_iff in Hp as (e & <- & He).
    apply ent_ok_valid; [eapply Forall_forall; eauto|].
    pose proof (chain_start_le _ _ Hc) as Hle. eapply Forall_forall in Hle; [|exact He].
    cbn beta in Hle. rewrite (InvG_data_len HI) in HL.
    assert (MAX_RESERVED_SIZE < two64) by reflexivity. lia.
  Qed.

  Lemma ents_nil_of_disk ents : len (encode_pages (pgs ents)) = 0 -> ents = [].
  Proof using Bounds.
    rewrite len_encode_pages, pgs_len. change SIZE_OF_PAGE with 16. intros H.
    apply len_0_nil. lia.
  Qed.

  (* C07 `PagesInv` of DESIGN.md, on the decoded page list: gap-free from HEADER_OFFSET, all but the last
     full and compressed, only the last may be raw, a raw page has count*size bytes *)
  Fixpoint pages_chain (st : N) (l : list page) : Prop :=
    match l with
    | [] => True
    | p :: t => p_start p = st /\ pages_chain (page_end p) t
    end.
  Definition PagesInv (s : cvs) : Prop :=
    exists dp,
      decode_pages (pg_disk (s_pg s)) = Ok dp /\
      pg_disk (s_pg s) = encode_pages dp /\
      pages_chain HEADER_OFFSET dp /\
      (forall a p b, dp = a ++ p :: b -> b <> [] ->
         page_values_count p = PP /\ page_is_raw p = false) /\
      Forall (fun p => 1 <= page_values_count p <= PP /\
                       (page_is_raw p = true -> p_bytes p = page_values_count p * size)) dp /\
      len (s_data s) = pages_next_start dp /\
      (* memory vs disk; change_at <= first index where they differ *)
      ((pg_change_at (s_pg s) = None /\ pg_vec (s_pg s) = dp) \/
       (pg_change_at (s_pg s) = Some 0 /\ pg_vec (s_pg s) = [] /\ s_stored_len s = 0)) /\
      s_stored_len s <= pages_stored_len PP (pg_vec (s_pg s)) /\
      (pg_change_at (s_pg s) = None -> pages_stored_len PP dp = pages_stored_len PP (pg_vec (s_pg s))).

  Lemma pages_chain_pgs st l : chain st l -> Forall ent_ok l -> pages_chain st (pgs l).
  Proof.
    revert st; induction l as [|e l IH]; intros st Hc Ho; [exact I|].
    destruct Hc as [H1 H2]. inversion Ho as [|? ? He Hl].
    split; [exact H1|]. unfold page_end. rewrite H1, <- (ent_ok_bytes He). now apply IH.
  Qed.

  Lemma Inv_PagesInv s : Inv s -> PagesInv s.
  Proof using Codec.
    intros (hd & ents & mem & HI).
    pose proof (InvG_disk HI) as Hdisk. destruct (InvG_ents_wf HI) as (Wc & Wo & Wn).
    pose proof (InvG_vec HI) as Hvec. pose proof (InvG_mem HI) as Hmem. pose proof (InvG_bound HI) as Hbound.
    exists (pgs ents).
    split; [rewrite Hdisk; apply decode_encode_pages, (InvG_pgs_valid HI)|].
    split; [exact Hdisk|].
    split; [now apply pages_chain_pgs|].
    split.
    { intros a p b Hd Hb. apply map_eq_app in Hd as (ea & eb & -> & <- & Hd).
      apply map_eq_cons in Hd as (e & eb' & -> & <- & <-).
      pose proof (Forall_elt _ _ _ Wo) as Oe.
      assert (Hf : len (e_vals e) = PP) by (apply (nlf_mid ea e eb' Wn); now destruct eb').
      split; [now rewrite (ent_ok_count Oe)|].
      destruct (page_is_raw (e_pg e)) eqn:E; [|reflexivity]. destruct (ent_ok_raw Oe E). lia. }
    split.
    { apply Forall_forall. intros p Hp. apply in_map_iff in Hp as (e & <- & He).
      eapply Forall_forall in Wo; [|exact He]. rewrite (ent_ok_count Wo). split; [exact (ent_ok_len Wo)|].
      intros E. destruct (ent_ok_raw Wo E) as (_ & Hbl).
      now rewrite <- (ent_ok_bytes Wo), Hbl, len_map, (len_values_to_bytes enc_len). }
    split; [rewrite (InvG_data_len HI); symmetry; now apply next_start_chain|].
    split.
    { destruct Hmem as [[Hc ->]|[Hc ->]]; [left; now rewrite Hvec|right].
      rewrite Hvec. repeat split; auto. rewrite vals_nil, len_nil in Hbound. lia. }
    split.
    { destruct (InvG_mem_wf HI) as (_ & Mo & Mn). rewrite Hvec, stored_len_pgs by auto. exact Hbound. }
    intros Hc. destruct Hmem as [[_ ->]|[Hc' _]]; [now rewrite Hvec|congruence].
  Qed.

  Lemma decode_ent e : ent_ok e ->
    decode_page T size dec decompress (e_blob e) (e_pg e) = Ok (e_vals e).
  Proof using Codec fmt.
    intros He. unfold decode_page. rewrite (ent_ok_count He).
    destruct (page_is_raw (e_pg e)) eqn:E.
    - destruct (ent_ok_raw He E) as (_ & Hb). unfold bytes_to_values.
      rewrite Hb, len_map, (len_values_to_bytes enc_len), N.leb_refl, map_cell_byte_CB.
      unfold len. rewrite Nat2N.id, <- (app_nil_r (values_to_bytes (e_vals e))).
      now rewrite (decode_vals_bytes enc_len dec_enc).
    - destruct (ent_ok_full He E) as (_ & k & Hb). now rewrite Hb, codec_rt, N.eqb_refl.
  Qed.

  Lemma get_pgs_mid a e b : get (pgs (a ++ e :: b)) (len a) = Some (e_pg e).
  Proof. rewrite pgs_app, <- (pgs_len a). apply get_app_len. Qed.

  Lemma InvG_page_at {s hd ents mem} a e b : InvG s hd ents mem -> mem = a ++ e :: b ->
    get (pg_vec (s_pg s)) (len a) = Some (e_pg e) /\
    decode_page T size dec decompress (page_data (s_data s) (e_pg e)) (e_pg e) = Ok (e_vals e).
  Proof.
    intros HI Hm. destruct (InvG_mem_wf HI) as (Mc & Mo & _). destruct (InvG_data HI) as (tail & ->).
    rewrite (InvG_vec HI), Hm in *. pose proof (Forall_elt _ _ _ Mo) as He. split; [apply get_pgs_mid|].
    rewrite blobs_app. change (blobs (e :: b)) with (e_blob e ++ blobs b).
    rewrite <- !app_assoc, (app_assoc (map CB _)). unfold page_data.
    replace (p_start (e_pg e)) with (len (map CB (header_to_bytes hd) ++ blobs a))
      by (now rewrite (chain_mid Mc), len_app, len_hbytes).
    rewrite <- (ent_ok_bytes He), slice_mid. now apply decode_ent.
  Qed.

  Lemma write_header_ok {s hd ents mem} : InvG s hd ents mem ->
    exists d, write_header_if_needed T s = (set_hdr (set_data s d) (s_hdr s) false, Ok tt) /\
      InvG (set_hdr (set_data s d) (s_hdr s) false) (s_hdr s) ents mem.
  Proof.
    intros H. pose proof (InvG_hdr_ok H) as Hh. pose proof (InvG_data_eq H) as Hd. pose proof (InvG_data_le H) as HL.
    unfold write_header_if_needed. destruct (s_hdr_mod s) eqn:E.
    - assert (L : HEADER_OFFSET <= len (s_data s)) by (rewrite Hd, len_app, len_hbytes; lia).
      rewrite r_write_at_intro by (rewrite ?len_hbytes; lia). rewrite take_0, len_hbytes. cbn [lift_r app].
      eexists. split; [reflexivity|].
      apply (InvG_set_hdr _ (s_hdr s) H); try reflexivity; try exact Hh.
      cbn [s_data set_hdr set_data]. now rewrite Hd, drop_app_exact by (now rewrite len_hbytes).
    - exists (s_data s). rewrite (InvG_hd_eq H E) in H. clear - H E. destruct s. cbn in E. subst. split; [reflexivity|exact H].
  Qed.

  (* sl = len kept * PP + r with r < PP: the plan keeps the full pages before the one sl falls into *)
  Lemma plan_spec mem hc sl pl : wfp HEADER_OFFSET mem -> sl <= len (vals mem) ->
    (write_plan size (pgs mem) hc sl pl = Ok PlanNoop /\ pl = 0 /\ sl = len (vals mem) /\ hc = false) \/
    (exists kept rest r partial,
       write_plan size (pgs mem) hc sl pl = Ok (PlanGo (ends HEADER_OFFSET kept) (len kept) partial) /\
       mem = kept ++ rest /\ allfull kept /\ sl = len kept * PP + r /\ r < PP /\
       ~ (pl = 0 /\ sl = len (vals mem) /\ hc = false) /\
       ((partial = None /\ r = 0)
        \/ (exists e rest', rest = e :: rest' /\ partial = Some (e_pg e, r) /\ r <> 0 /\ r <= len (e_vals e)))).
  Proof.
    intros (Hc & Ho & Hn) Hsl. unfold write_plan. rewrite stored_len_pgs, pgs_len by auto.
    destruct (N.ltb_spec (len (vals mem)) sl); [lia|].
    destruct ((pl =? 0) && (sl =? len (vals mem)) && negb hc) eqn:E0.
    { left. apply andb_true_iff in E0 as [E0 E3]. apply andb_true_iff in E0 as [E1 E2].
      apply negb_true_iff in E3. apply N.eqb_eq in E1, E2. auto. }
    right.
    assert (NN : ~ (pl = 0 /\ sl = len (vals mem) /\ hc = false)).
    { intros (-> & -> & ->). now rewrite !N.eqb_refl in E0. }
    clear E0. pose proof PP_pos as Hpp. pose proof (vals_le mem Ho) as Hvl.
    (* quotient and remainder as variables: division stays out of the arithmetic below *)
    pose proof (N.div_mod' sl PP) as Hdm. pose proof (N.mod_lt sl PP ltac:(lia)) as Hr.
    set (q := sl / PP) in *. set (r := sl mod PP) in *. clearbody q r.
    assert (Hq : q <= len mem) by (apply (pages_bound PP q r _ (len (vals mem))); lia).
    assert (S : exists kept rest, mem = kept ++ rest /\ len kept = q).
    { exists (take q mem), (drop q mem). rewrite take_drop, len_take. split; [reflexivity|lia]. }
    destruct S as (kept & rest & -> & <-).
    destruct (N.ltb_spec (len (kept ++ rest)) (len kept)); [lia|].
    exists kept, rest, r. rewrite len_app in *.
    destruct (N.ltb_spec (len kept) (len kept + len rest)) as [Hlt|Hge].
    - destruct rest as [|e rest']; [rewrite len_nil in Hlt; lia|].
      assert (Hkf : allfull kept) by (now apply (Hn kept (e :: rest'))).
      rewrite get_pgs_mid, (chain_mid Hc). eexists.
      split; [reflexivity|]. do 5 (split; [first [reflexivity|assumption|lia]|]).
      destruct (N.eqb_spec r 0); [now left|right]. exists e, rest'. do 3 (split; [auto|]).
      destruct rest' as [|e2 rest2]; [|rewrite (nlf_mid kept e (e2 :: rest2) Hn) by discriminate; lia].
      rewrite vals_app, vals_single, len_app, (vals_allfull kept Hkf) in Hsl. lia.
    - assert (rest = []) by (apply len_0_nil; lia). subst rest. rewrite app_nil_r in *.
      rewrite next_start_chain by auto. exists None. split; [reflexivity|].
      split; [reflexivity|]. split; [apply vals_full_all; [auto|lia]|].
      do 3 (split; [first [assumption|lia]|]). left. split; [reflexivity|lia].
  Qed.

  (* the entries of the pages one slow-path write produces.  (This and the later Notations of the section hide the model's
     constants behind their applications to the section variables; a script that unfolds one names it `CvModel.…`.) *)
  Notation encode_chunk := (encode_chunk T size enc compress).
  Notation encode_chunks := (encode_chunks T size enc compress).

  Fixpoint build (hints : list N) (st pi : N) (cs : list (list T)) : list ent :=
    match cs with
    | [] => []
    | c :: t =>
        let '(b, (bl, vl, raw)) := encode_chunk hints pi c in
        let p := if raw then page_raw st bl vl else page_compressed st bl vl in
        mkEnt p b c :: build hints (st + bl) (pi + 1) t
    end.

  Lemma encode_chunks_build hints st pi cs :
    fst (encode_chunks hints pi cs) = blobs (build hints st pi cs).
  Proof.
    revert st pi; induction cs as [|c t IH]; intros st pi; [reflexivity|].
    cbn [CvModel.encode_chunks build].
    destruct (encode_chunk hints pi c) as [b [[bl vl] raw]] eqn:E.
    specialize (IH (st + bl) (pi + 1)).
    destruct (encode_chunks hints (pi + 1) t) as [bt st'] eqn:E2.
    cbn [fst] in *. unfold blobs in *. cbn [map concat e_blob]. now rewrite IH.
  Qed.

  Lemma encode_chunk_len hints pi c : exists b vl raw,
    encode_chunk hints pi c = (b, (len b, vl, raw)).
  Proof.
    unfold CvModel.encode_chunk. destruct (len c =? PP); eauto.
  Qed.

  Lemma push_build hints : forall cs st pi p c,
    pi = len (pg_vec p) -> pages_next_start (pg_vec p) = st -> pg_change_at p = Some c -> c <= pi ->
    push_pages p pi (snd (encode_chunks hints pi cs)) =
      (mkPages (pg_vec p ++ pgs (build hints st pi cs)) (Some c) (pg_disk p), Ok tt).
  Proof.
    induction cs as [|ch t IH]; intros st pi p c Hpi Hst Hca Hc.
    - cbn. rewrite app_nil_r. destruct p; cbn in *. now rewrite Hca.
    - cbn [CvModel.encode_chunks build].
      destruct (encode_chunk_len hints pi ch) as (b & vl & raw & E). rewrite E.
      destruct (encode_chunks hints (pi + 1) t) as [bt szs] eqn:E2.
      cbn [snd push_pages]. rewrite Hst.
      set (pg := if raw then page_raw st (len b) vl else page_compressed st (len b) vl).
      unfold pages_checked_push. rewrite Hpi, N.eqb_refl. cbn [negb].
      rewrite Hca, <- Hpi, set_changed_at_some by auto.
      specialize (IH (st + len b) (pi + 1)
        (mkPages (pg_vec p ++ [pg]) (Some c) (pg_disk p)) c).
      rewrite E2 in IH. cbn [snd pg_vec pg_change_at pg_disk] in IH.
      rewrite IH.
      + cbn [pgs map e_pg]. now rewrite <- app_assoc.
      + rewrite len_app, len_cons, len_nil. lia.
      + rewrite next_start_snoc. subst pg. destruct raw; reflexivity.
      + reflexivity.
      + lia.
  Qed.

  Lemma len_build hints st pi cs : len (build hints st pi cs) = len cs.
  Proof using Type.
    revert st pi; induction cs as [|c t IH]; intros; [reflexivity|].
    cbn [build]. destruct (encode_chunk hints pi c) as [b [[bl vl] raw]].
    rewrite !len_cons, IH. reflexivity.
  Qed.

  Lemma vals_build hints st pi cs : vals (build hints st pi cs) = concat cs.
  Proof.
    revert st pi; induction cs as [|c t IH]; intros; [reflexivity|].
    cbn [build]. destruct (encode_chunk hints pi c) as [b [[bl vl] raw]].
    unfold vals in *. cbn [map concat e_vals]. now rewrite IH.
  Qed.

  Lemma build_head_ok hints st pi c :
    1 <= len c -> len c <= PP ->
    exists e, (forall t, build hints st pi (c :: t) = e :: build hints (st + len (e_blob e)) (pi + 1) t) /\
      ent_ok e /\ p_start (e_pg e) = st /\ e_vals e = c.
  Proof.
    intros H1 H2. unfold build. fold build. unfold CvModel.encode_chunk.
    destruct (N.eqb_spec (len c) PP); eexists (mkEnt _ _ c); (split; [intros t; reflexivity|]);
      (split; [|split; reflexivity]); [now apply ent_ok_full_intro|apply ent_ok_raw_intro; lia].
  Qed.

  Lemma build_ok hints : forall cs st pi, chunked PP cs -> wfp st (build hints st pi cs).
  Proof.
    intros cs st pi H. revert st pi. induction H as [|c H1 H2|c t Hc Ht Hch IH]; intros st pi.
    - apply wfp_nil.
    - destruct (build_head_ok hints st pi c H1 H2) as (e & Hb & He & Hs & _).
      rewrite Hb. now apply wfp_single.
    - pose proof PP_pos.
      destruct (build_head_ok hints st pi c ltac:(lia) ltac:(lia)) as (e & Hb & He & Hs & Hv).
      rewrite Hb. apply (wfp_app st [e]); [now apply wfp_single|constructor; [now rewrite Hv|constructor]|].
      rewrite ends_cons, ends_nil. apply IH.
  Qed.

  Lemma flush_ok ents kept new p3 r :
    (exists rest2, ents = kept ++ rest2) ->
    pages_flush (mkPages (pgs kept ++ pgs new) (Some (len kept)) (encode_pages (pgs ents))) = (p3, r) ->
    r = Panic \/ (r = Ok tt /\ p3 = mkPages (pgs (kept ++ new)) None (encode_pages (pgs (kept ++ new)))).
  Proof.
    intros (rest2 & ->). unfold pages_flush. cbn [pg_change_at pg_vec pg_disk].
    destruct (N.ltb_spec (len (pgs kept ++ pgs new)) (len kept)); [rewrite len_app, pgs_len in *; lia|].
    rewrite drop_app_exact, r_truncate_write_intro by (rewrite ?len_encode_pages, !pgs_len, ?len_app; nia).
    destruct (MAX_RESERVED_SIZE <? _); cbn [lift_r]; intros HF; inversion HF; subst; [now left|right].
    split; [reflexivity|]. f_equal.
    - now rewrite pgs_app.
    - rewrite take_encode_pages, pgs_app, take_app_exact by (now rewrite pgs_len).
      now rewrite pgs_app, encode_pages_app.
  Qed.

  Set Implicit Arguments.
  Record same_roll (s s' : cvs) : Prop := {
    sr_hdr : s_hdr s' = s_hdr s;
    sr_prev_pushed : s_prev_pushed s' = s_prev_pushed s;
    sr_prev_stored_len : s_prev_stored_len s' = s_prev_stored_len s;
    sr_ssc : s_ssc s' = s_ssc s;
    sr_changes : s_changes s' = s_changes s }.
  Unset Implicit Arguments.

  Lemma same_roll_trans s1 s2 s3 : same_roll s1 s2 -> same_roll s2 s3 -> same_roll s1 s3.
  Proof. intros [A1 A2 A3 A4 A5] [B1 B2 B3 B4 B5]. split; congruence. Qed.

  Lemma same_roll_stamp s s' : same_roll s s' -> cv_stamp s' = cv_stamp s.
  Proof. intros SR. unfold cv_stamp. now rewrite (sr_hdr SR). Qed.

  (* what write() leaves; Panic: a region hit its size limit *)
  Definition settled (s : cvs) (mem : list ent) (s' : cvs) (r : res cverr bool) : Prop :=
    r = Panic \/ exists wb ents', r = Ok wb /\ Synced s' ents' /\ vals ents' = view s mem /\ same_roll s s'.

  (* the slow path, entered at the first page it rewrites: `kept` are the full pages before it, `head` the values
     kept from it; the new pages are `build` of the chunks of head ++ pushed *)
  Lemma write_slow_ok {s hd ents mem kept rest head hints s' r} :
    InvG s hd ents mem -> s_hdr_mod s = false ->
    mem = kept ++ rest -> allfull kept ->
    s_stored_len s = len kept * PP + len head ->
    take (s_stored_len s) (vals mem) = vals kept ++ head ->
    write_slow T size enc compress s hints (ends HEADER_OFFSET kept) (len kept) head = (s', r) ->
    settled s mem s' r.
  Proof.
    intros HI Hmod Hmem Hkf Hsl Hview HW.
    pose proof (InvG_mem_wf HI) as Wk. rewrite Hmem in Wk. apply wfp_prefix in Wk. pose proof Wk as (Ck & Ok_ & _).
    destruct (InvG_kept_prefix HI Hmem) as ((rest2 & Hents) & Hca).
    pose proof (InvG_data_hdr HI Hmod) as Hdata. pose proof (InvG_vec HI) as Hvec.
    rewrite Hents, blobs_app, app_assoc in Hdata.
    assert (Lpre : len (map CB (header_to_bytes (s_hdr s)) ++ blobs kept) = ends HEADER_OFFSET kept)
      by (now rewrite len_app, len_hbytes).
    unfold write_slow in HW. rewrite match_app in HW.
    set (values := head ++ s_pushed s) in *. set (cs := chunks PP values) in *.
    pose proof (encode_chunks_build hints (ends HEADER_OFFSET kept) (len kept) cs) as EB.
    pose proof (push_build hints cs (ends HEADER_OFFSET kept) (len kept)
                  (mkPages (pgs kept) (Some (len kept)) (pg_disk (s_pg s))) (len kept)) as PB.
    destruct (encode_chunks hints (len kept) cs) as [buf sizes]. cbn [fst snd] in EB, PB.
    set (new := build hints (ends HEADER_OFFSET kept) (len kept) cs) in *.
    cbn [s_data s_pg set_pushed set_data] in HW.
    rewrite r_truncate_write_intro in HW by (rewrite Hdata, len_app, Lpre; lia).
    destruct (N.ltb_spec MAX_RESERVED_SIZE (ends HEADER_OFFSET kept + len buf)) as [EM|EM]; cbn [lift_r] in HW;
      [inversion HW; now left|].
    rewrite Hdata, take_app_exact in HW by (now rewrite Lpre).
    unfold pages_truncate in HW. rewrite Hvec, Hmem, pgs_app, take_app_exact, Hca in HW by (now rewrite pgs_len).
    rewrite PB in HW; [|cbn; now rewrite pgs_len|now apply next_start_chain|reflexivity|lia].
    cbn [pg_vec pg_disk] in HW.
    pose proof (build_ok hints cs (ends HEADER_OFFSET kept) (len kept)
                  (chunks_chunked PP values ltac:(pose proof PP_pos; lia))) as Wn. fold new in Wn.
    rewrite (InvG_disk HI) in HW.
    destruct (pages_flush _) as [p3 rf] eqn:EF.
    destruct (flush_ok ents kept new p3 rf (ex_intro _ rest2 Hents) EF) as [->|[-> ->]];
      inversion HW; subst s' r; [now left|right].
    assert (Hv : vals (kept ++ new) = view s mem).
    { rewrite vals_app. unfold new, cs, view. rewrite vals_build, chunks_concat by (pose proof PP_pos; lia).
      unfold values. now rewrite Hview, app_assoc. }
    assert (Hlen : s_stored_len s + len (s_pushed s) = len (vals (kept ++ new)))
      by (rewrite Hv; symmetry; apply view_len, (InvG_bound HI)).
    exists true, (kept ++ new). split; [reflexivity|]. split; [|now repeat split].
    split; [|exact Hmod|exact Hlen|reflexivity].
    apply InvG_intro; [reflexivity|exact (InvG_hdr_ok HI)|cbn; now rewrite blobs_app, EB, app_assoc| |reflexivity| |cbn; lia].
    - cbn. rewrite len_app, Lpre. lia.
    - now apply wfp_app.
  Qed.

  (* the fast path is a shortcut: on its inputs the slow path re-encodes the kept raw page with the pushed values
     behind it into the same single raw page *)
  Lemma write_fast_slow {s hd ents mem kept e} hints :
    InvG s hd ents mem -> s_hdr_mod s = false -> mem = kept ++ [e] ->
    page_is_raw (e_pg e) = true -> len (e_vals e) + len (s_pushed s) < PP ->
    write_fast T enc s (len kept) (e_pg e) (len (e_vals e)) =
    write_slow T size enc compress s hints (ends HEADER_OFFSET kept) (len kept) (e_vals e).
  Proof.
    intros HI Hmod Hmem Hraw Hfit.
    destruct (InvG_mem_wf HI) as (Mc & Mo & _).
    (* a non-empty index in memory is the index on disk *)
    destruct (InvG_mem HI) as [[_ ->]|[_ E]]; [|rewrite E in Hmem; now destruct kept].
    pose proof (InvG_data_hdr HI Hmod) as Hdata. pose proof (InvG_vec HI) as Hvec.
    rewrite Hmem in Mc, Mo, Hdata, Hvec. pose proof (chain_mid Mc) as Hst.
    apply chain_app in Mc as [Ck _]. pose proof (Forall_elt _ _ _ Mo) as Oe. apply Forall_app in Mo as [Ok_ _].
    destruct (ent_ok_raw Oe Hraw) as (_ & Eb). pose proof (ent_ok_len Oe) as Hlen.
    unfold write_fast, write_slow. rewrite match_app.
    rewrite chunks_one by (rewrite ?len_app; pose proof PP_pos; lia).
    cbn [CvModel.encode_chunks]. unfold CvModel.encode_chunk.
    destruct (N.eqb_spec (len (e_vals e ++ s_pushed s)) PP) as [E|_]; [rewrite len_app in E; lia|].
    cbn [push_pages s_data s_pg set_pushed set_data pages_truncate pg_vec].
    rewrite Hvec, pgs_app, take_app_exact, next_start_chain by (auto using pgs_len).
    rewrite app_nil_r, (values_to_bytes_app enc), map_app, <- Eb, !len_app.
    unfold page_end. rewrite Hst, <- (ent_ok_bytes Oe).
    (* the bytes of the kept page are written again where they are *)
    rewrite Hdata, blobs_app, blobs_single, app_assoc.
    replace (ends HEADER_OFFSET kept) with (len (map CB (header_to_bytes (s_hdr s)) ++ blobs kept))
      by (now rewrite len_app, len_hbytes).
    rewrite <- (len_app (_ ++ _) (e_blob e)), r_truncate_write_app.
    destruct (lift_r _) as [d| |]; [|reflexivity..].
    destruct (pages_checked_push _ _ _) as [p2 [[]| |]]; reflexivity.
  Qed.

  Notation cv_write := (cv_write T size enc dec compress decompress).

  Lemma fast_path_cases a e b r pl : Forall ent_ok (a ++ e :: b) -> nlf (a ++ e :: b) -> r < PP ->
    (fast_path size (Some (e_pg e, r)) pl = Some (e_pg e, r) /\ b = [] /\ page_is_raw (e_pg e) = true /\
       r = len (e_vals e) /\ r + pl < PP) \/
    (fast_path size (Some (e_pg e, r)) pl = None /\ (r <> len (e_vals e) \/ PP <= r + pl)).
  Proof.
    intros Ho Hn Hr. pose proof (Forall_elt _ _ _ Ho) as He. unfold fast_path. rewrite (ent_ok_count He).
    destruct (page_is_raw (e_pg e)) eqn:Eraw; cbn [andb].
    2:{ right. split; [reflexivity|]. left. rewrite (proj1 (ent_ok_full He Eraw)). lia. }
    destruct (N.eqb_spec r (len (e_vals e))) as [Er|Er]; cbn [andb]; [|right; auto].
    destruct (N.ltb_spec (r + pl) PP); [left|right; auto].
    repeat split; auto. destruct b as [|e2 b]; [reflexivity|exfalso].
    pose proof (nlf_mid a e (e2 :: b) Hn ltac:(discriminate)). destruct (ent_ok_raw He Eraw). lia.
  Qed.

  Lemma write_settled {s hd ents mem hints s' r} :
    InvG s hd ents mem -> cv_write s hints = (s', r) -> settled s mem s' r.
  Proof.
    intros HI HW. destruct (write_header_ok HI) as (d & E1 & HI1).
    unfold CvModel.cv_write in HW. rewrite E1 in HW. clear E1 HI.
    (* from here on s1: it differs from s in the data region and the header flag, which `settled` does not read *)
    set (s1 := set_hdr (set_data s d) (s_hdr s) false) in *.
    enough (St : settled s1 mem s' r).
    { destruct St as [->|(wb & ents' & -> & Sy & V & [A1 A2 A3 A4 A5])]; [now left|right].
      exists wb, ents'. split; [reflexivity|]. split; [exact Sy|]. split; [exact V|]. split; assumption. }
    assert (Hmod : s_hdr_mod s1 = false) by reflexivity.
    change (s_hdr s) with (s_hdr s1) in HI1. clearbody s1. clear s d hd.
    pose proof (InvG_mem_wf HI1) as (_ & Mo & Mn). rewrite (InvG_vec HI1) in HW.
    destruct (plan_spec mem (pages_has_changes (s_pg s1)) (s_stored_len s1) (len (s_pushed s1)) (InvG_mem_wf HI1)
                (InvG_bound HI1))
      as [(P & Hpl & Hsl & Hhc)|(kept & rest & r0 & partial & P & Hmem & Hkf & Hsl & Hr & _ & Hcase)]; rewrite P in HW.
    - inversion HW; subst s' r. right. exists false, mem. apply len_0_nil in Hpl.
      assert (Hme : mem = ents).
      { destruct (InvG_mem HI1) as [[_ ?]|[Hc0 _]]; [auto|]. unfold pages_has_changes in Hhc. now rewrite Hc0 in Hhc. }
      subst ents. pose proof (Build_Synced HI1 Hmod Hsl Hpl) as Sy.
      split; [reflexivity|]. split; [exact Sy|]. split; [symmetry; exact (view_synced _ _ Sy)|now repeat split].
    - destruct Hcase as [(-> & ->)|(e & rest' & -> & -> & Hr0 & Hle)].
      + cbn [fast_path] in HW. apply (write_slow_ok HI1 Hmod Hmem Hkf) in HW; [exact HW|exact Hsl|].
        rewrite Hsl, Hmem, take_vals_split, take_0 by auto. reflexivity.
      + rewrite Hmem in Mo, Mn.
        destruct (fast_path_cases kept e rest' r0 (len (s_pushed s1)) Mo Mn Hr) as [(F & -> & Hraw & -> & Hfit)|(F & _)];
          rewrite F in HW.
        * rewrite (write_fast_slow hints HI1 Hmod Hmem Hraw Hfit) in HW.
          apply (write_slow_ok HI1 Hmod Hmem Hkf) in HW; [exact HW|exact Hsl|].
          rewrite Hsl, Hmem, take_vals_split, vals_single, take_all by auto. reflexivity.
        * rewrite (proj2 (InvG_page_at kept e rest' HI1 Hmem)) in HW. cbn [bind] in HW.
          apply (write_slow_ok HI1 Hmod Hmem Hkf) in HW; auto.
          -- rewrite len_take. lia.
          -- rewrite Hsl, Hmem, take_vals_split, vals_cons, take_app_le by auto. reflexivity.
  Qed.

  (* C07_regime_total: each regime with the condition under which write() selects it; RError is unreachable *)
  Lemma regime_total s : Inv s ->
    let sl := s_stored_len s in let pl := len (s_pushed s) in
    match write_regime T size s with
    | RNoop => pl = 0 /\ sl = real_stored_len T size s
    | RFast => sl mod PP <> 0 /\ sl = real_stored_len T size s /\ sl mod PP + pl < PP
    | RReencode => sl mod PP <> 0 /\ (sl < real_stored_len T size s \/ PP <= sl mod PP + pl)
    | RFresh => sl mod PP = 0 /\ pl <> 0
    | RTruncOnly => sl mod PP = 0 /\ pl = 0 /\
                    (sl < real_stored_len T size s \/ pages_has_changes (s_pg s) = true)
    | RError => False
    end.
  Proof using Codec.
    intros (hd & ents & mem & HI). cbv zeta.
    pose proof (InvG_mem_wf HI) as (_ & Mo & Mn). pose proof (InvG_bound HI) as Hb.
    unfold write_regime. rewrite (InvG_real_stored_len HI), (InvG_vec HI).
    destruct (plan_spec mem (pages_has_changes (s_pg s)) (s_stored_len s) (len (s_pushed s)) (InvG_mem_wf HI) Hb)
      as [(P & Hpl & Hsl & Hhc)|(kept & rest & r & partial & P & Hmem & Hkf & Hsl & Hr & NN & Hcase)];
      rewrite P; [auto|].
    replace (s_stored_len s mod PP) with r by (apply (N.mod_unique _ _ (len kept)); lia).
    assert (Hv : len (vals mem) = len kept * PP + len (vals rest))
      by (now rewrite Hmem, vals_app, len_app, (vals_allfull kept Hkf)).
    destruct Hcase as [(-> & ->)|(e & rest' & -> & -> & Hr0 & Hle)].
    - cbn [fast_path]. destruct (s_pushed s) as [|t p]; [|rewrite len_cons; lia].
      do 2 (split; [reflexivity|]). destruct (pages_has_changes (s_pg s)); [now right|left].
      rewrite len_nil in NN. lia.
    - rewrite Hmem in Mo, Mn. rewrite vals_cons, len_app in Hv.
      destruct (fast_path_cases kept e rest' r (len (s_pushed s)) Mo Mn Hr) as [(F & -> & _ & -> & Hfit)|(F & Hx)];
        rewrite F; (split; [exact Hr0|]).
      + split; [|exact Hfit]. rewrite vals_nil, len_nil in Hv. lia.
      + destruct Hx; [left; lia|now right].
  Qed.

  (* the pages holding values from .. k-1: their index range is what collect_stored_range computes by division *)
  Lemma page_split mem from k : Forall ent_ok mem -> nlf mem -> from < k <= len (vals mem) ->
    exists done todo rest, mem = done ++ todo ++ rest /\ allfull done /\ todo <> [] /\
      len done = from / PP /\ len done + len todo = (k - 1) / PP + 1 /\
      len done * PP <= from < (len done + 1) * PP /\ (len done + len todo) * PP < k + PP /\
      k <= len (vals (done ++ todo)).
  Proof.
    (* done = the first from / PP pages, todo = those up to the page of value k - 1; both cuts fall inside mem because
       k <= len (vals mem) <= len mem * PP, and whatever stands before a non-empty remainder is full (nlf) *)
    intros Ho Hn Hk. pose proof PP_pos as Hpp. pose proof (vals_le mem Ho) as Hvl.
    pose proof (div_window PP from ltac:(lia)) as W1. pose proof (div_window PP (k - 1) ltac:(lia)) as W2.
    pose proof (N.div_le_mono from (k - 1) PP ltac:(lia) ltac:(lia)) as Hse.
    set (sp := from / PP) in *. set (ep := (k - 1) / PP) in *. clearbody sp ep.
    assert (Hep : ep < len mem) by nia.
    exists (take sp mem), (take (ep + 1 - sp) (drop sp mem)), (drop (ep + 1 - sp) (drop sp mem)).
    rewrite !take_drop, !len_take, len_drop, (N.min_l sp), (N.min_l (ep + 1 - sp)) by lia.
    assert (Hne : take (ep + 1 - sp) (drop sp mem) <> []).
    { intros E. apply (f_equal len) in E. rewrite len_take, len_drop, len_nil in E. lia. }
    split; [reflexivity|]. split; [|split; [exact Hne|]].
    { apply (Hn _ (drop sp mem)); [now rewrite take_drop|]. intros E. now rewrite E, take_nil in Hne. }
    do 4 (split; [lia|]).
    destruct (drop (ep + 1 - sp) (drop sp mem)) as [|e rest] eqn:E.
    - rewrite <- (app_nil_r (take _ (drop sp mem))), <- E, !take_drop. lia.
    - rewrite (vals_allfull (_ ++ _)), len_app, !len_take, len_drop; [nia|].
      apply (Hn _ (e :: rest)); [|discriminate]. now rewrite <- E, <- app_assoc, !take_drop.
  Qed.

  (* the loop of collect_stored_range standing at page k = len done with the pages `todo` still to visit: `to` lies
     within done ++ todo, `from` before the end of page k (only the first page visited is cut at the front), and every
     page visited starts below `to`, so the bound check of decode_page_with (mod.rs:106) passes *)
  Lemma csr_pages_spec {s hd ents mem} rl from to : InvG s hd ents mem -> from <= to -> to <= rl ->
    forall todo done rest k, mem = done ++ todo ++ rest -> allfull done -> k = len done ->
    to <= len (vals (done ++ todo)) -> from < (k + 1) * PP -> (todo <> [] -> (k + len todo) * PP < to + PP) ->
    csr_pages T size dec decompress (pg_vec (s_pg s)) (s_data s) rl from to (seqN k (length todo)) =
      Ok (slice (from - k * PP) (to - k * PP) (vals todo)).
  Proof.
    intros HI Hft Hrl. destruct (InvG_mem_wf HI) as (_ & _ & Mn).
    induction todo as [|e todo IH]; intros done rest k Hm Hd Hk Hto Hfr Hlast.
    - now rewrite vals_nil, slice_nil.
    - cbn [length seqN csr_pages]. subst k. change ((e :: todo) ++ rest) with (e :: todo ++ rest) in Hm.
      specialize (Hlast ltac:(discriminate)). rewrite len_cons in Hlast.
      pose proof (N.le_0_l (len todo * PP)).
      destruct (N.leb_spec rl (len done * PP)); [lia|].
      destruct (InvG_page_at done e (todo ++ rest) HI Hm) as [G D]. rewrite G, D. cbn [bind]. rewrite Hm in Mn.
      rewrite vals_app, len_app, (vals_allfull done Hd), vals_cons, len_app in Hto.
      destruct (N.ltb_spec (N.min (to - len done * PP) (len (e_vals e))) (from - len done * PP)) as [Hx|_].
      { destruct todo; [rewrite vals_nil, len_nil in Hto|rewrite (nlf_mid done e _ Mn) in Hx by discriminate]; lia. }
      destruct todo as [|e2 todo].
      + cbn [length seqN csr_pages bind]. now rewrite slice_min, vals_single, app_nil_r.
      + rewrite slice_min, (vals_cons e), slice_app, (IH (done ++ [e]) rest (len done + 1)).
        * cbn [bind]. rewrite (nlf_mid done e _ Mn) by discriminate. do 3 f_equal; lia.
        * now rewrite Hm, <- app_assoc.
        * now apply (nlf_mid_full Mn).
        * rewrite len_app, len_cons, len_nil. lia.
        * rewrite <- app_assoc. cbn [app]. now rewrite vals_app, len_app, (vals_allfull done Hd), vals_cons, len_app.
        * lia.
        * intros _. rewrite len_cons in *. lia.
  Qed.

  Lemma csr_spec {s hd ents mem} from to : InvG s hd ents mem ->
    collect_stored_range T size dec decompress s from to =
      Ok (slice from (N.min to (len (vals mem))) (vals mem)).
  Proof.
    intros HI. destruct (InvG_mem_wf HI) as (_ & Mo & Mn).
    unfold collect_stored_range. rewrite (InvG_real_stored_len HI).
    destruct (N.leb_spec to from); [now rewrite slice_empty by lia|].
    set (to' := N.min to (len (vals mem))).
    destruct (N.leb_spec to' from); [now rewrite slice_empty by lia|].
    destruct (page_split mem from to' Mo Mn ltac:(lia))
      as (done & todo & rest & Hm & Hdf & Hne & Hld & Hlt & Hfr & Hlast & Hk).
    rewrite <- Hlt, <- Hld. clear Hlt Hld.
    replace (N.to_nat (len done + len todo - len done)) with (length todo) by (unfold len; lia).
    rewrite (csr_pages_spec (len (vals mem)) from to' HI ltac:(lia) ltac:(lia)
               todo done rest (len done) Hm Hdf eq_refl Hk ltac:(lia) (fun _ => Hlast)).
    rewrite Hm, app_assoc, (vals_app (_ ++ _)), slice_app_l, vals_app, slice_app_r, (vals_allfull done Hdf);
      [reflexivity|rewrite (vals_allfull done Hdf); lia|exact Hk].
  Qed.

  Lemma len_decode_vals n bs : len (decode_vals T size dec n bs) = N.of_nat n.
  Proof. revert bs; induction n as [|n IH]; intros bs; [reflexivity|]. cbn [decode_vals]. rewrite len_cons, IH. lia. Qed.

  Lemma decode_page_len d pg v : decode_page T size dec decompress d pg = Ok v -> len v = page_values_count pg.
  Proof.
    unfold decode_page, bytes_to_values. destruct (page_is_raw pg).
    - destruct (_ <=? _); [|discriminate]. intros H. injection H as <-. rewrite len_decode_vals. lia.
    - destruct (decompress d _) as [w|]; [|discriminate].
      destruct (N.eqb_spec (len w) (page_values_count pg)) as [E|]; [|discriminate]. intros H. now injection H as <-.
  Qed.

  (* read_stored_pages_into is the page loop of collect_stored_range started at 0, wherever that one succeeds *)
  Lemma read_csr pv d rl to : forall idxs v,
    csr_pages T size dec decompress pv d rl 0 to idxs = Ok v -> read_pages T size dec decompress pv d to idxs = Ok v.
  Proof.
    induction idxs as [|pi rest IH]; intros v H; cbn [csr_pages read_pages] in *; [exact H|].
    destruct (rl <=? pi * PP); [discriminate|]. destruct (get pv pi) as [pg|]; [|discriminate].
    destruct (decode_page _ _ _ _ _ pg) as [vs| |] eqn:D; cbn [bind] in H; try discriminate.
    rewrite N.sub_0_l in H. destruct (_ <? 0); [discriminate|].
    destruct (csr_pages _ _ _ _ pv d rl 0 to rest) as [more| |]; cbn [bind] in H; try discriminate.
    rewrite <- (decode_page_len _ _ _ D), (IH more eq_refl). cbn [bind].
    destruct (N.ltb_spec (len vs) (N.min (to - pi * PP) (len vs))); [lia|]. rewrite andb_false_r.
    injection H as <-. unfold slice. now rewrite N.sub_0_r.
  Qed.

  Lemma collect_csr (s : cvs) v : s_stored_len s <= real_stored_len T size s ->
    collect_stored_range T size dec decompress s 0 (s_stored_len s) = Ok v ->
    cv_collect T size dec decompress s = Ok (v ++ s_pushed s).
  Proof.
    intros Hr. unfold collect_stored_range, cv_collect, cv_len.
    rewrite (N.min_l _ _ Hr), N.div_0_l, N.sub_0_r by (pose proof PP_pos; lia).
    destruct (N.eqb_spec (s_stored_len s + len (s_pushed s)) 0) as [E0|_].
    { replace (s_stored_len s) with 0 by lia. rewrite (len_0_nil (s_pushed s)) by lia. intros H. now injection H as <-. }
    destruct (N.leb_spec (s_stored_len s) 0) as [L|L]; destruct (N.ltb_spec 0 (s_stored_len s)) as [L'|L']; try lia; intros H.
    - now injection H as <-.
    - now rewrite (read_csr _ _ _ _ _ _ H).
  Qed.

  Lemma collect_view s hd ents mem : InvG s hd ents mem ->
    cv_collect T size dec decompress s = Ok (view s mem).
  Proof using Codec.
    intros HI. pose proof (InvG_bound HI) as Hb.
    rewrite (collect_csr s _ ltac:(now rewrite (InvG_real_stored_len HI)) (csr_spec 0 (s_stored_len s) HI)).
    unfold view, slice. now rewrite N.min_l, N.sub_0_r by exact Hb.
  Qed.

  Definition ser_tv (s : cvs) (mem : list ent) : list T :=
    slice (s_stored_len s) (N.min (s_prev_stored_len s) (len (vals mem))) (vals mem).
  Definition ser_bytes (s : cvs) (tv : list T) : list N :=
    u64b (cv_stamp s) ++ u64b (s_prev_stored_len s) ++ u64b (s_stored_len s)
    ++ u64b (s_prev_stored_len s - s_stored_len s) ++ values_to_bytes tv
    ++ u64b (len (s_prev_pushed s)) ++ values_to_bytes (s_prev_pushed s)
    ++ u64b (len (s_pushed s)) ++ values_to_bytes (s_pushed s).

  (* ser_bytes writes the truncated count as prev_stored_len - stored_len (saturating), record_bytes as len tv: the two
     layouts are one exactly when tv has that many values, as ser_tv has once prev_stored_len lies within the pages
     (`len_ser_tv`) *)
  Lemma ser_bytes_record (s : cvs) tv : len tv = s_prev_stored_len s - s_stored_len s ->
    ser_bytes s tv =
      CvFault.record_bytes T enc (cv_stamp s) (s_prev_stored_len s) (s_stored_len s) tv (s_prev_pushed s) (s_pushed s).
  Proof. intros H. unfold ser_bytes, CvFault.record_bytes. now rewrite H. Qed.

  Lemma serialize_eq {s hd ents mem} : InvG s hd ents mem ->
    serialize_changes T size enc dec decompress s = Ok (ser_bytes s (ser_tv s mem)).
  Proof.
    intros HI. unfold serialize_changes, ser_tv.
    destruct (N.ltb_spec 0 (s_prev_stored_len s - s_stored_len s)); [now rewrite (csr_spec _ _ HI)|].
    now rewrite slice_empty by lia.
  Qed.

  Lemma update_stamp_hdr (s : cvs) st : exists h m, update_stamp s st = set_hdr s h m.
  Proof. unfold update_stamp. destruct (_ =? st); [exists (s_hdr s), (s_hdr_mod s); now destruct s|eauto]. Qed.

  Lemma update_stamp_stamp (s : cvs) st : cv_stamp (update_stamp s st) = st.
  Proof.
    unfold update_stamp, cv_stamp. destruct (N.eqb_spec (h_stamp (s_hdr s)) st); [assumption|reflexivity].
  Qed.

  Lemma view_update_stamp s st mem : view (update_stamp s st) mem = view s mem.
  Proof. now destruct (update_stamp_hdr s st) as (h & m & ->). Qed.

  Lemma update_stamp_InvG {s hd ents mem} st : InvG s hd ents mem -> st < two64 ->
    InvG (update_stamp s st) hd ents mem.
  Proof.
    intros HI Hst. unfold update_stamp. destruct (_ =? st); [exact HI|].
    apply (InvG_set_hdr _ hd HI); try reflexivity;
      [exact (hdr_ok_stamp _ st (InvG_hdr_ok HI) Hst)|exact (InvG_hd_ok HI)|discriminate|exact (InvG_data_eq HI)].
  Qed.

  Lemma cv_truncate_eq (s : cvs) n :
    cv_truncate s n = if cv_len s <=? n then s
                      else set_stored_len (set_pushed s (take (n - s_stored_len s) (s_pushed s))) (N.min n (s_stored_len s)).
  Proof.
    unfold cv_truncate, cv_len. destruct (_ <=? n); [reflexivity|]. destruct s as [h m d pg sl pu pp psl k ch].
    cbn [CvModel.s_stored_len CvModel.s_pushed].
    destruct (N.leb_spec n sl); destruct (N.ltb_spec n sl); try lia; unfold set_stored_len, set_pushed; cbn;
      f_equal; try lia; now replace (n - sl) with 0 by lia.
  Qed.

  Lemma truncate_ok {s hd ents mem} n : InvG s hd ents mem ->
    InvG (cv_truncate s n) hd ents mem /\ same_roll s (cv_truncate s n) /\
    s_stored_len (cv_truncate s n) <= s_stored_len s /\
    view (cv_truncate s n) mem = if n <? len (view s mem) then take n (view s mem) else view s mem.
  Proof.
    intros HI. pose proof (InvG_bound HI) as Hb. rewrite cv_truncate_eq, (view_len s mem Hb).
    destruct (N.leb_spec (cv_len s) n); destruct (N.ltb_spec n (cv_len s)); try lia.
    { split; [exact HI|]. split; [now repeat split|]. split; [lia|reflexivity]. }
    split; [apply (InvG_frame s); try reflexivity; [cbn; lia|exact HI]|]. split; [now repeat split|]. split; [cbn; lia|].
    unfold view. cbn [s_stored_len s_pushed set_stored_len set_pushed].
    rewrite take_app_split, take_take_min, len_take. do 2 f_equal; lia.
  Qed.

  Lemma reset_ok {s hd ents mem} : InvG s hd ents mem ->
    InvG (cv_reset s) hd ents [] /\ cv_stamp (cv_reset s) = 0 /\ view (cv_reset s) [] = [].
  Proof.
    intros HI. unfold cv_reset. rewrite cv_truncate_eq.
    split; [|split; [apply update_stamp_stamp|now rewrite view_update_stamp]].
    apply update_stamp_InvG; [|reflexivity].
    assert (C : set_changed_at (pg_change_at (s_pg s)) 0 = Some 0) by (destruct (InvG_mem HI) as [[-> _]|[-> _]]; reflexivity).
    (* whether or not the truncation changed anything, the fields InvG reads are those of s with the index emptied *)
    destruct (_ <=? 0); apply (InvG_forget _ HI); try reflexivity;
      cbn [s_pg set_pg set_stored_len set_pushed]; unfold pages_reset, pages_truncate; now rewrite C.
  Qed.

  Lemma reimport_ok {s hd ents mem} : InvG s hd ents mem ->
    let s' := mkCvs hd false (s_data s) (mkPages (pgs ents) None (pg_disk (s_pg s)))
                    (len (vals ents)) [] [] (len (vals ents)) 0 None in
    cv_import T size fmt vver (s_data s) (pg_disk (s_pg s)) = Ok s' /\ InvG s' hd ents ents.
  Proof.
    intros HI. pose proof (InvG_hd_ok HI) as Hh. pose proof Hh as (V & H1 & H2 & H3).
    pose proof (InvG_data_eq HI) as Hdata. pose proof (InvG_disk HI) as Hdisk. destruct (InvG_ents_wf HI) as (_ & Wo & Wn).
    split; [|apply InvG_intro; [reflexivity|exact Hh|exact Hdata|exact (InvG_data_le HI)|cbn; now rewrite Hdisk|
                                exact (InvG_ents_wf HI)|reflexivity]].
    unfold cv_import.
    assert (L : len (s_data s) = HEADER_OFFSET + len (blobs ents)) by (now rewrite Hdata, len_app, len_hbytes).
    destruct (N.ltb_spec (len (s_data s)) HEADER_OFFSET); [lia|]. rewrite andb_false_r.
    destruct (N.eqb_spec (len (s_data s)) 0); [change HEADER_OFFSET with 32 in L; lia|].
    rewrite Hdata at 1. rewrite take_app_exact, map_cell_byte_CB, header_roundtrip by (auto using len_hbytes).
    cbn [lift_v bind]. rewrite H1, H2, H3, !N.eqb_refl. cbn [negb bind].
    unfold pages_import. rewrite Hdisk, decode_encode_pages by exact (InvG_pgs_valid HI).
    cbn [bind pg_vec]. now rewrite stored_len_pgs, <- Hdisk.
  Qed.

  (* stamped_write_with_changes with retention > 0 *)
  Notation cv_commit := (cv_commit T size enc dec compress decompress).

  Lemma commit_settled {s hd ents mem st hints s' r} :
    InvG s hd ents mem -> s_ssc s <> 0 -> st < two64 -> cv_commit s st hints = (s', r) ->
    r = Panic \/ exists wb ents',
      r = Ok wb /\ Synced s' ents' /\ vals ents' = view s mem /\
      cv_stamp s' = st /\ s_ssc s' = s_ssc s /\
      s_prev_pushed s' = [] /\ s_prev_stored_len s' = s_stored_len s' /\
      s_changes s' = save_change_file T s st (ser_bytes s (ser_tv s mem)).
  Proof.
    intros HI Hk Hst HC. unfold CvModel.cv_commit in HC.
    destruct (N.eqb_spec (s_ssc s) 0); [contradiction|]. rewrite (serialize_eq HI) in HC.
    set (s1 := set_roll s (s_ssc s) _) in HC.
    assert (HI1 : InvG (update_stamp s1 st) hd ents mem)
      by (apply update_stamp_InvG; [eapply InvG_same; [..|exact HI]; reflexivity|exact Hst]).
    destruct (cv_write (update_stamp s1 st) hints) as [s2 r2] eqn:EW.
    destruct (write_settled HI1 EW) as [->|(wb & ents' & -> & Sy & V2 & SR)];
      inversion HC; subst s' r; [now left|right].
    exists wb, ents'. rewrite view_update_stamp in V2.
    assert (Hst2 : cv_stamp s2 = st) by (rewrite (same_roll_stamp _ _ SR); apply update_stamp_stamp).
    pose proof (sr_ssc SR) as Q3. pose proof (sr_changes SR) as Q4.
    destruct (update_stamp_hdr s1 st) as (h & m & E). rewrite E in Q3, Q4.
    split; [reflexivity|]. split; [|now repeat split].
    split; [|exact (sy_hdr_mod Sy)|exact (sy_stored Sy)|exact (sy_pushed Sy)].
    eapply InvG_same; [..|exact (sy_inv Sy)]; reflexivity.
  Qed.

  (* the reference of C03/C07: the contents and the stamp in memory, and those a re-import would find.  It does not
     follow rollbacks; `sspec` below (C04/C16) follows commits and rollbacks and not write / flush / reset / re-import
     outside a commit.  A history that mixes the two kinds is followed by neither relation as a whole: after a rollback
     `rollback_continuation` hands the state over to R, and nothing leads from R back to RC. *)
  Notation op := (op T).
  Notation cv_step := (cv_step T size enc dec compress decompress fmt vver).
  Notation cv_run := (cv_run T size enc dec compress decompress fmt vver).

  Record spec := mkSpec { a_cur : list T; a_stamp : N; a_saved : list T; a_saved_stamp : N }.

  Definition spec_step (a : spec) (o : op) : spec :=
    match o with
    | Push vs => mkSpec (a_cur a ++ vs) (a_stamp a) (a_saved a) (a_saved_stamp a)
    | Trunc n => mkSpec (if n <? len (a_cur a) then take n (a_cur a) else a_cur a) (a_stamp a) (a_saved a) (a_saved_stamp a)
    | Write _ | Flush _ => mkSpec (a_cur a) (a_stamp a) (a_cur a) (a_stamp a)
    | Reset => mkSpec [] 0 (a_saved a) (a_saved_stamp a)
    | Reimport => mkSpec (a_saved a) (a_saved_stamp a) (a_saved a) (a_saved_stamp a)
    | StampedWrite st _ => mkSpec (a_cur a) st (a_cur a) st
    | Rollback | RollbackBefore _ => a
    end.
  Definition spec_run (a : spec) (h : list op) : spec := fold_left spec_step h a.
  Definition spec_init : spec := mkSpec [] 0 [] 0.

  Definition op_ok (o : op) : Prop :=
    match o with StampedWrite st _ => st < two64 | Rollback | RollbackBefore _ => False | _ => True end.

  Definition RG (s : cvs) (a : spec) hd ents mem : Prop :=
    InvG s hd ents mem /\ a_cur a = view s mem /\ a_stamp a = h_stamp (s_hdr s) /\
    a_saved a = vals ents /\ a_saved_stamp a = h_stamp hd.
  Definition R (s : cvs) (a : spec) : Prop := exists hd ents mem, RG s a hd ents mem.

  Lemma R_synced s ents : Synced s ents -> R s (mkSpec (vals ents) (cv_stamp s) (vals ents) (cv_stamp s)).
  Proof.
    intros Sy. exists (s_hdr s), ents, ents. split; [exact (sy_inv Sy)|].
    rewrite (view_synced _ _ Sy). now repeat split.
  Qed.

  Lemma update_stamp_RG {s a hd ents mem} st : RG s a hd ents mem -> st < two64 ->
    RG (update_stamp s st) (mkSpec (a_cur a) st (a_saved a) (a_saved_stamp a)) hd ents mem.
  Proof.
    intros (HI & R1 & R2 & R3 & R4) Hst. split; [now apply update_stamp_InvG|].
    rewrite view_update_stamp. fold (cv_stamp (update_stamp s st)). rewrite update_stamp_stamp. now repeat split.
  Qed.

  Lemma write_R {s a hd ents mem hints s' r} :
    RG s a hd ents mem -> cv_write s hints = (s', r) ->
    r = Panic \/ exists b, r = Ok b /\ R s' (mkSpec (a_cur a) (a_stamp a) (a_cur a) (a_stamp a)).
  Proof.
    intros (HI & R1 & R2 & _) HW.
    destruct (write_settled HI HW) as [->|(wb & ents' & -> & Sy & V & SR)]; [now left|right].
    exists wb. split; [reflexivity|]. rewrite <- (sr_hdr SR) in R2. rewrite R1, <- V, R2. exact (R_synced _ _ Sy).
  Qed.

  (* Where a constructor added to CvModel.op is entered in this file.  C03/C07: `spec_step`, `op_ok` (its last arm
     `_ => True` admits it) and a case of `step_R`, whose `destruct o` then leaves a goal.  Commit/rollback histories:
     `ss_step`, `cop_ok` and a case of `chain_step`; the last arms `_ => a` of `ss_step` and `_ => False` of `cop_ok` take
     the new operation out of the histories without a failing proof (`try contradiction` at the head of `chain_step`
     closes its case).  `is_edit` with `edit_step`, `is_push`, `is_pc` with `ss_count` if it belongs to those classes. *)
  Lemma step_R s a o s' r :
    R s a -> op_ok o -> cv_step s o = (s', r) ->
    r = Panic \/ exists b, r = Ok b /\ R s' (spec_step a o).
  Proof using Codec.
    intros (hd & ents & mem & HR) Hok HS. pose proof HR as (HI & R1 & R2 & R3 & R4).
    destruct o as [vs|n|hints|hints| | |st hints| |st]; cbn [CvModel.cv_step] in HS; try (now destruct Hok).
    - inversion HS; subst s' r. right. exists false. split; [reflexivity|].
      exists hd, ents, mem. split; [exact HI|]. cbn [spec_step a_cur a_stamp a_saved a_saved_stamp].
      now rewrite R1, view_push.
    - inversion HS; subst s' r. right. exists false. split; [reflexivity|].
      destruct (truncate_ok n HI) as (I' & SR & _ & Hv).
      exists hd, ents, mem. split; [exact I'|]. cbn [spec_step a_cur a_stamp a_saved a_saved_stamp].
      now rewrite R1, (sr_hdr SR), Hv.
    - exact (write_R HR HS).
    - exact (write_R HR HS).
    - inversion HS; subst s' r. right. exists false. split; [reflexivity|].
      destruct (reset_ok HI) as (I' & G2 & G3).
      exists hd, ents, []. split; [exact I'|]. now repeat split.
    - destruct (reimport_ok HI) as [E I']. unfold cv_import_k in HS. rewrite E in HS. cbn [bind] in HS.
      injection HS as <- <-. right. exists false. split; [reflexivity|].
      cbn [spec_step]. rewrite R3, R4. apply R_synced.
      split; [eapply InvG_same; [..|exact I']; reflexivity|reflexivity..].
    - cbn [op_ok] in Hok. destruct (N.eqb_spec (s_ssc s) 0) as [E|E].
      + unfold CvModel.cv_commit in HS. rewrite (proj2 (N.eqb_eq _ _) E) in HS.
        exact (write_R (update_stamp_RG st HR Hok) HS).
      + destruct (commit_settled HI E Hok HS) as [->|(wb & ents' & -> & Sy & V & <- & _)]; [now left|right].
        exists wb. split; [reflexivity|]. cbn [spec_step]. rewrite R1, <- V. exact (R_synced _ _ Sy).
  Qed.

  (* Panic is reachable only through the 1 TiB limit of a rawdb region (CvRegion.v); a history is
     followed as long as no step panicked. *)
  Fixpoint no_panic (s : cvs) (h : list op) : Prop :=
    match h with
    | [] => True
    | o :: t => snd (cv_step s o) <> Panic /\ no_panic (fst (cv_step s o)) t
    end.
  Fixpoint steps_ok (s : cvs) (h : list op) : Prop :=
    match h with
    | [] => True
    | o :: t => (exists b, snd (cv_step s o) = Ok b) /\ steps_ok (fst (cv_step s o)) t
    end.

  Lemma Inv_R s : Inv s -> exists a, R s a.
  Proof.
    intros (hd & ents & mem & HI).
    exists (mkSpec (view s mem) (h_stamp (s_hdr s)) (vals ents) (h_stamp hd)), hd, ents, mem.
    split; [exact HI|now repeat split].
  Qed.
  Lemma R_Inv s a : R s a -> Inv s.
  Proof. intros (hd & ents & mem & HI & _). now exists hd, ents, mem. Qed.

  (* create_and_write on empty regions (header/inner.rs:18) *)
  Lemma cv_import_empty :
    cv_import T size fmt vver [] [] =
      let h := mkHeader HEADER_VERSION vver 0 0 fmt in
      Ok (mkCvs h false (map CB (header_to_bytes h)) (mkPages [] None []) 0 [] [] 0 0 None).
  Proof.
    unfold cv_import. change (len (@nil cell)) with 0. cbn [N.ltb N.eqb N.compare andb].
    rewrite r_write_at_intro by (rewrite ?len_hbytes; now vm_compute).
    cbn [lift_r bind]. unfold drop. now rewrite skipn_nil, app_nil_r.
  Qed.

  Lemma init_R s0 : cv_import T size fmt vver [] [] = Ok s0 -> R s0 spec_init.
  Proof using Bounds fmt_ok.
    rewrite cv_import_empty. intros H. inversion H; subst s0. clear H.
    set (h := mkHeader HEADER_VERSION vver 0 0 fmt).
    assert (Hh : hdr_ok h).
    { repeat split. unfold valid_header. cbn [h h_hv h_vv h_cv h_stamp h_format].
      rewrite fmt_ok, !andb_true_r, !andb_true_iff, !N.ltb_lt. repeat split; try reflexivity. exact vver_ok. }
    exists h, [], []. split; [|now repeat split].
    apply InvG_intro; [reflexivity|exact Hh|symmetry; apply app_nil_r| |reflexivity|apply wfp_nil|apply N.le_0_l].
    cbn [s_data]. rewrite len_hbytes. now vm_compute.
  Qed.

  Lemma cv_run_cons (s : cvs) o t : cv_run s (o :: t) = cv_run (fst (cv_step s o)) t.
  Proof. reflexivity. Qed.

  Lemma run_R : forall h s a, R s a -> Forall op_ok h -> no_panic s h ->
    R (cv_run s h) (spec_run a h) /\ steps_ok s h.
  Proof using Codec.
    induction h as [|o t IH]; intros s a HR Hok Hnp; [split; [exact HR|exact I]|].
    inversion Hok as [|? ? Ho Ht]; subst. destruct Hnp as [Hn1 Hn2]. rewrite cv_run_cons. cbn [steps_ok].
    destruct (cv_step s o) as [s' r] eqn:ES. cbn [fst snd] in *.
    destruct (step_R s a o s' r HR Ho ES) as [->|(b & -> & W)]; [congruence|].
    destruct (IH s' (spec_step a o) W Ht Hn2) as [IH1 IH2]. split; [exact IH1|]. split; eauto.
  Qed.

  Lemma run_Inv : forall h s, Inv s -> Forall op_ok h -> no_panic s h ->
    Inv (cv_run s h) /\ steps_ok s h.
  Proof using Codec.
    intros h s HI Hok Hnp. destruct (Inv_R s HI) as (a & HR).
    destruct (run_R h s a HR Hok Hnp) as [H1 H2]. split; [exact (R_Inv _ _ H1)|exact H2].
  Qed.

  (* Props/C03comp: C03_comp_reads *)
  Lemma R_collect s a : R s a -> cv_collect T size dec decompress s = Ok (a_cur a).
  Proof using Codec.
    intros (hd & ents & mem & HI & R1 & _). rewrite (collect_view _ _ _ _ HI). now rewrite R1.
  Qed.

  Theorem lossless h s0 :
    cv_import T size fmt vver [] [] = Ok s0 -> Forall op_ok h -> no_panic s0 h ->
    cv_collect T size dec decompress (cv_run s0 h) = Ok (a_cur (spec_run spec_init h)).
  Proof using Codec fmt_ok.
    intros Hi Hok Hnp. apply R_collect.
    exact (proj1 (run_R h s0 spec_init (init_R s0 Hi) Hok Hnp)).
  Qed.

  Notation parse_change := (parse_change T size dec).
  Notation cv_rollback := (cv_rollback T size dec).

  (* b is the baseline the next commit records its changes against: the contents at the last commit or rollback *)
  Definition BaseOK (s : cvs) (mem : list ent) (b : list T) : Prop :=
    s_prev_stored_len s <= len (vals mem) /\
    b = take (s_prev_stored_len s) (vals mem) ++ s_prev_pushed s.

  Lemma BaseOK_same_roll {s s' mem b} : same_roll s s' -> BaseOK s mem b -> BaseOK s' mem b.
  Proof. intros SR. unfold BaseOK. now rewrite (sr_prev_pushed SR), (sr_prev_stored_len SR). Qed.

  Lemma BaseOK_synced {s ents} : Synced s ents -> s_prev_pushed s = [] -> s_prev_stored_len s = s_stored_len s ->
    BaseOK s ents (vals ents).
  Proof.
    intros Sy Pp Ps. pose proof (sy_stored Sy) as L. split; [lia|]. now rewrite Ps, Pp, L, take_all, app_nil_r.
  Qed.

  (* bs is a record that, applied over the pages mem, restores the contents b and the stamp pst *)
  Definition RecOK (mem : list ent) (bs : list N) (b : list T) (pst : N) : Prop :=
    exists ch, parse_change bs = Ok ch /\ ch_prev_stamp T ch = pst /\
      ch_truncated_start T ch <= len (vals mem) /\
      b = take (ch_truncated_start T ch) (vals mem) ++ ch_truncated_values T ch ++ ch_prev_pushed T ch /\
      (ch_truncated_values T ch = [] -> ch_prev_stored_len T ch = ch_truncated_start T ch).

  (* the side condition that makes the u64 fields and cursor arithmetic overflow-free (usize in the code) *)
  Definition fits (s : cvs) : Prop :=
    s_prev_stored_len s < two64 /\ s_stored_len s < two64 /\
    48 + size * s_prev_stored_len s + size * len (s_prev_pushed s) + size * len (s_pushed s) < two64.

  Lemma len_ser_tv (s : cvs) mem : s_prev_stored_len s <= len (vals mem) ->
    len (ser_tv s mem) = s_prev_stored_len s - s_stored_len s.
  Proof. intros H. unfold ser_tv. rewrite len_slice. lia. Qed.

  Lemma parse_ser a b c tv pp pu :
    a < two64 -> b < two64 -> c < two64 -> len tv <= b ->
    48 + size * len tv + size * len pp + size * len pu < two64 ->
    parse_change (CvFault.record_bytes T enc a b c tv pp pu) = Ok (mkChange T a b (b - len tv) tv pp).
  Proof using Codec fmt.
    intros Ha Hb Hc Htv Hfit. rewrite (parse_record T size enc enc_len dec dec_enc size_pos) by assumption.
    destruct (N.ltb_spec b (len tv)); [lia|reflexivity].
  Qed.

  Lemma parse_ser_bytes {s hd ents mem} : InvG s hd ents mem -> s_prev_stored_len s <= len (vals mem) -> fits s ->
    parse_change (ser_bytes s (ser_tv s mem)) =
      Ok (mkChange T (cv_stamp s) (s_prev_stored_len s) (N.min (s_prev_stored_len s) (s_stored_len s))
                   (ser_tv s mem) (s_prev_pushed s)).
  Proof.
    intros HI Bp (F1 & F2 & F3). pose proof (len_ser_tv s mem Bp) as Ltv. pose proof (InvG_stamp_lt HI).
    replace (N.min (s_prev_stored_len s) (s_stored_len s)) with (s_prev_stored_len s - len (ser_tv s mem)) by lia.
    rewrite (ser_bytes_record s _ Ltv). apply parse_ser; auto; lia.
  Qed.

  Lemma ser_RecOK {s hd ents mem b ents'} : InvG s hd ents mem -> BaseOK s mem b -> fits s ->
    vals ents' = view s mem -> RecOK ents' (ser_bytes s (ser_tv s mem)) b (cv_stamp s).
  Proof.
    intros HI (Bp & Bb) Hfit V. pose proof (InvG_bound HI) as Hb.
    eexists. split; [exact (parse_ser_bytes HI Bp Hfit)|].
    cbn [ch_prev_stamp ch_truncated_start ch_truncated_values ch_prev_pushed ch_prev_stored_len].
    set (ts := N.min (s_prev_stored_len s) (s_stored_len s)).
    assert (Htake : take ts (vals ents') = take ts (vals mem)) by (rewrite V; apply take_view; lia).
    split; [reflexivity|]. split; [rewrite V, (view_len s mem Hb); unfold cv_len; lia|]. split.
    - rewrite Htake, Bb, app_assoc. f_equal. unfold ser_tv. rewrite N.min_l by lia.
      destruct (N.le_gt_cases (s_prev_stored_len s) (s_stored_len s)).
      + rewrite slice_empty, app_nil_r by lia. f_equal. lia.
      + replace ts with (s_stored_len s) by lia. symmetry. apply take_slice. lia.
    - intros Hnil. pose proof (len_ser_tv s mem Bp) as Ltv. rewrite Hnil, len_nil in Ltv. lia.
  Qed.

  Lemma len_filter_le {A} (f : A -> bool) l : len (filter f l) <= len l.
  Proof using Bounds.
    induction l as [|x l IH]; [cbn; lia|]. cbn [filter]. destruct (f x); rewrite ?len_cons; lia.
  Qed.

  (* `fst f <= cv_stamp s`: save_change_file drops the records of an abandoned future *)
  Lemma save_change_file_spec (s : cvs) stamp data : s_ssc s <> 0 ->
    exists d, save_change_file T s stamp data = Some d /\ len d <= s_ssc s /\
      lookup_file d stamp = Some data /\
      Forall (fun f => f = (stamp, data) \/ (fst f < stamp /\ fst f <= cv_stamp s)) d.
  Proof using Bounds.
    intros Hk. unfold save_change_file. eexists. split; [reflexivity|].
    set (files := filter _ _).
    assert (Hf : Forall (fun f => fst f < stamp /\ fst f <= cv_stamp s) files).
    { apply Forall_forall. intros f Hin. apply filter_In in Hin as [_ Hin].
      apply andb_true_iff in Hin as [H1 H2]. apply N.ltb_lt in H1. apply N.leb_le in H2. auto. }
    split.
    { rewrite len_app, len_drop, len_cons, len_nil. lia. }
    split.
    { apply lookup_app_last. apply Forall_drop. eapply Forall_impl; [|exact Hf]. cbn. intros f [H _]. lia. }
    apply Forall_app. split.
    - apply Forall_drop. eapply Forall_impl; [|exact Hf]. cbn. auto.
    - constructor; [now left|constructor].
  Qed.

  Lemma commit_ok s hd ents mem b st hints s' r :
    InvG s hd ents mem -> BaseOK s mem b -> s_ssc s <> 0 -> st < two64 -> fits s ->
    cv_commit s st hints = (s', r) ->
    r = Panic \/ exists wb ents' dir bs,
      r = Ok wb /\ InvG s' (s_hdr s') ents' ents' /\ s_hdr_mod s' = false /\
      vals ents' = view s mem /\ s_stored_len s' = len (vals ents') /\ s_pushed s' = [] /\
      cv_stamp s' = st /\ s_ssc s' = s_ssc s /\
      BaseOK s' ents' (view s mem) /\
      s_changes s' = Some dir /\ lookup_file dir st = Some bs /\
      RecOK ents' bs b (cv_stamp s).
  Proof using Codec.
    intros HI HB Hk Hst Hfit HC.
    destruct (commit_settled HI Hk Hst HC)
      as [->|(wb & ents' & -> & Sy & V2 & St2 & K2 & Pp & Ps & C2)]; [now left|right].
    destruct (save_change_file_spec s st (ser_bytes s (ser_tv s mem)) Hk) as (dir & Hd & _ & Hl & _).
    exists wb, ents', dir, (ser_bytes s (ser_tv s mem)). split; [reflexivity|].
    split; [exact (sy_inv Sy)|]. split; [exact (sy_hdr_mod Sy)|]. split; [exact V2|].
    split; [exact (sy_stored Sy)|]. split; [exact (sy_pushed Sy)|]. split; [exact St2|]. split; [exact K2|].
    split; [rewrite <- V2; exact (BaseOK_synced Sy Pp Ps)|].
    split; [congruence|]. split; [exact Hl|exact (ser_RecOK HI HB Hfit V2)].
  Qed.

  (* 0 when bs does not parse: `refuses_eq` relies on it *)
  Definition rec_ts (bs : list N) : N :=
    match parse_change bs with Ok ch => ch_truncated_start T ch | _ => 0 end.

  Lemma parse_rec_ts {bs ch} : parse_change bs = Ok ch -> rec_ts bs = ch_truncated_start T ch.
  Proof. unfold rec_ts. now intros ->. Qed.

  Lemma rollback_ok {s hd ents mem b pst dir bs s' r} :
    InvG s hd ents mem -> s_changes s = Some dir -> lookup_file dir (cv_stamp s) = Some bs ->
    RecOK mem bs b pst -> pst < two64 ->
    cv_rollback s = (s', r) ->
    if s_stored_len s <? rec_ts bs then r = Err EIndexTooHigh /\ s' = s
    else r = Ok tt /\ InvG s' hd ents mem /\ view s' mem = b /\ cv_stamp s' = pst /\ BaseOK s' mem b /\
         s_changes s' = s_changes s /\ s_ssc s' = s_ssc s /\
         s_stored_len s' = rec_ts bs /\ s_prev_stored_len s' = rec_ts bs.
  Proof.
    intros HI Hd Hl (ch & Hp & Hps & Hts & Hb & Hnil) Hpst HR. rewrite (parse_rec_ts Hp).
    unfold CvModel.cv_rollback in HR. rewrite Hd, Hl in HR. unfold cv_undo in HR. rewrite Hp in HR. revert HR.
    destruct (N.ltb_spec (s_stored_len s) (ch_truncated_start T ch)) as [Eg|Eg]; intros HR; [now injection HR as <- <-|].
    (* both shapes of the record (with and without truncated values) restore b at stored length truncated_start *)
    set (q := match ch_truncated_values T ch with [] => _ | _ :: _ => _ end) in HR.
    assert (Hq : q = (ch_truncated_start T ch, ch_truncated_values T ch ++ ch_prev_pushed T ch)).
    { subst q. rewrite (InvG_real_stored_len HI), N.min_l by lia.
      destruct (ch_truncated_values T ch); [now rewrite Hnil|reflexivity]. }
    rewrite Hq in HR. injection HR as <- <-. subst pst.
    pose proof (update_stamp_InvG _ HI Hpst) as HIu. pose proof (update_stamp_stamp s (ch_prev_stamp T ch)) as Hst'.
    destruct (update_stamp_hdr s (ch_prev_stamp T ch)) as (h & m & E). rewrite E in *.
    split; [reflexivity|]. split; [apply (InvG_frame (set_hdr s h m)); try reflexivity; [exact Hts|exact HIu]|].
    now repeat split.
  Qed.

  Definition is_edit (o : op) : Prop := match o with Push _ | Trunc _ => True | _ => False end.
  Definition is_push (o : op) : Prop := match o with Push _ => True | _ => False end.

  Lemma edit_step {s hd ents mem} o : InvG s hd ents mem -> is_edit o ->
    InvG (fst (cv_step s o)) hd ents mem /\ same_roll s (fst (cv_step s o)) /\
    s_stored_len (fst (cv_step s o)) <= s_stored_len s.
  Proof.
    intros HI He. destruct o as [vs|n| | | | | | | ]; try contradiction; cbn [CvModel.cv_step fst].
    - split; [exact HI|]. split; [now repeat split|reflexivity].
    - destruct (truncate_ok n HI) as (I' & S' & L' & _). auto.
  Qed.

  Lemma edits_run : forall h {s hd ents mem}, InvG s hd ents mem -> Forall is_edit h ->
    InvG (cv_run s h) hd ents mem /\ same_roll s (cv_run s h) /\ s_stored_len (cv_run s h) <= s_stored_len s.
  Proof.
    induction h as [|o t IH]; intros s hd ents mem HI He.
    - split; [exact HI|]. split; [now repeat split|reflexivity].
    - inversion He as [|? ? Ho Ht]; subst. rewrite cv_run_cons.
      destruct (edit_step o HI Ho) as (I1 & R1 & L1).
      destruct (IH _ _ _ _ I1 Ht) as (I2 & R2 & L2).
      split; [exact I2|]. split; [exact (same_roll_trans _ _ _ R1 R2)|lia].
  Qed.

  Lemma pushes_stored_len : forall h (s : cvs), Forall is_push h -> s_stored_len (cv_run s h) = s_stored_len s.
  Proof.
    induction h as [|o t IH]; intros s Hp; [reflexivity|]. inversion Hp as [|? ? Ho Ht]; subst.
    rewrite cv_run_cons, IH by exact Ht. now destruct o.
  Qed.

  (* the decidable class in which rollback() refuses a retained record: the vector's stored length lies
     below the record's truncation start (after undoing a truncating commit without a write() in between,
     or after an uncommitted truncation) *)
  Definition rollback_refuses (s : cvs) : bool :=
    match s_changes s with
    | Some dir => match lookup_file dir (cv_stamp s) with
                  | Some bs => match parse_change bs with
                               | Ok ch => s_stored_len s <? ch_truncated_start T ch
                               | _ => false
                               end
                  | None => false
                  end
    | None => false
    end.

  Lemma refuses_eq (s : cvs) dir bs : s_changes s = Some dir -> lookup_file dir (cv_stamp s) = Some bs ->
    rollback_refuses s = (s_stored_len s <? rec_ts bs).
  Proof.
    unfold rollback_refuses, rec_ts. intros -> ->.
    destruct (parse_change bs); [reflexivity|..]; symmetry; apply N.ltb_ge, N.le_0_l.
  Qed.

  (* a refusal means the edits after the commit truncated below the committed length *)
  Lemma rollback_step_cut {s hd ents mem b e1 st hints s2 wb e2 s4 r} :
    InvG s hd ents mem -> BaseOK s mem b -> s_ssc s <> 0 -> st < two64 ->
    Forall is_edit e1 -> Forall is_edit e2 -> fits (cv_run s e1) ->
    cv_commit (cv_run s e1) st hints = (s2, Ok wb) ->
    cv_rollback (cv_run s2 e2) = (s4, r) ->
    (rollback_refuses (cv_run s2 e2) = false /\ r = Ok tt /\
       cv_collect T size dec decompress s4 = Ok b /\ cv_stamp s4 = cv_stamp s /\
       s_ssc s4 = s_ssc s /\
       exists hd4 ents4, InvG s4 hd4 ents4 ents4 /\ BaseOK s4 ents4 b /\ view s4 ents4 = b)
    \/ (rollback_refuses (cv_run s2 e2) = true /\ r = Err EIndexTooHigh /\ s4 = cv_run s2 e2 /\
        s_stored_len (cv_run s2 e2) < s_stored_len s2).
  Proof.
    intros HI HB Hk Hst He1 He2 Hfit HC HR.
    destruct (edits_run e1 HI He1) as (I1 & SR1 & _).
    pose proof (BaseOK_same_roll SR1 HB) as HB1.
    destruct (commit_ok _ _ _ _ _ _ _ _ _ I1 HB1 ltac:(now rewrite (sr_ssc SR1)) Hst Hfit HC)
      as [Hp|(wb' & ents' & dir & bs & _ & I2 & M2 & V2 & L2 & P2 & St2 & K2 & B2' & C2 & Lk & Rec)]; [discriminate|].
    destruct (edits_run e2 I2 He2) as (I3 & SR3 & L3).
    set (s3 := cv_run s2 e2) in *.
    assert (Hst3 : cv_stamp s3 = st) by (now rewrite (same_roll_stamp _ _ SR3)).
    rewrite (same_roll_stamp _ _ SR1) in Rec.
    rewrite <- (sr_changes SR3) in C2. rewrite <- Hst3 in Lk.
    pose proof (rollback_ok I3 C2 Lk Rec (InvG_stamp_lt HI) HR) as H. rewrite (refuses_eq s3 dir bs C2 Lk).
    destruct (s_stored_len s3 <? rec_ts bs) eqn:G; [right|left].
    - destruct H as (-> & ->). do 3 (split; [reflexivity|]).
      destruct Rec as (ch & Hp & _ & Hts & _). rewrite (parse_rec_ts Hp) in G. apply N.ltb_lt in G. lia.
    - destruct H as (-> & I4 & V4 & St4 & B4 & C4 & K4 & _). do 2 (split; [reflexivity|]).
      split; [now rewrite (collect_view _ _ _ _ I4), V4|].
      split; [exact St4|]. split; [rewrite K4, (sr_ssc SR3), K2; exact (sr_ssc SR1)|]. eauto.
  Qed.

  Theorem rollback_step s hd ents mem b e1 st hints s2 wb e2 s4 r :
    InvG s hd ents mem -> BaseOK s mem b -> s_ssc s <> 0 -> st < two64 ->
    Forall is_edit e1 -> Forall is_edit e2 -> fits (cv_run s e1) ->
    cv_commit (cv_run s e1) st hints = (s2, Ok wb) ->
    cv_rollback (cv_run s2 e2) = (s4, r) ->
    (rollback_refuses (cv_run s2 e2) = false /\ r = Ok tt /\
       cv_collect T size dec decompress s4 = Ok b /\ cv_stamp s4 = cv_stamp s /\
       s_ssc s4 = s_ssc s /\
       exists hd4 ents4, InvG s4 hd4 ents4 ents4 /\ BaseOK s4 ents4 b /\ view s4 ents4 = b)
    \/ (rollback_refuses (cv_run s2 e2) = true /\ r = Err EIndexTooHigh /\ s4 = cv_run s2 e2).
  Proof using Codec.
    intros HI HB Hk Hst He1 He2 Hfit HC HR.
    destruct (rollback_step_cut HI HB Hk Hst He1 He2 Hfit HC HR) as [H|(H1 & H2 & H3 & _)];
      [now left|now right].
  Qed.

  Corollary rollback_after_commit s hd ents mem b e1 st hints s2 wb e2 s4 r :
    InvG s hd ents mem -> BaseOK s mem b -> s_ssc s <> 0 -> st < two64 ->
    Forall is_edit e1 -> Forall is_push e2 -> fits (cv_run s e1) ->
    cv_commit (cv_run s e1) st hints = (s2, Ok wb) ->
    cv_rollback (cv_run s2 e2) = (s4, r) ->
    r = Ok tt /\ cv_collect T size dec decompress s4 = Ok b /\ cv_stamp s4 = cv_stamp s.
  Proof using Codec.
    intros HI HB Hk Hst He1 Hp2 Hfit HC HR.
    assert (He2 : Forall is_edit e2) by (eapply Forall_impl; [|exact Hp2]; now intros [ ]).
    destruct (rollback_step_cut HI HB Hk Hst He1 He2 Hfit HC HR)
      as [(_ & -> & Hc & Hs & _)|(_ & _ & _ & Hlt)]; [auto|].
    rewrite (pushes_stored_len e2 s2 Hp2) in Hlt. lia.
  Qed.

  (* a successful rollback leaves a state from which the theorems over `R` apply again *)
  Theorem rollback_continuation s4 hd4 ents4 b :
    InvG s4 hd4 ents4 ents4 -> view s4 ents4 = b ->
    exists a, a_cur a = b /\ a_stamp a = cv_stamp s4 /\ R s4 a.
  Proof using Type.
    intros HI Hv.
    exists (mkSpec b (cv_stamp s4) (vals ents4) (h_stamp hd4)). split; [reflexivity|]. split; [reflexivity|].
    exists hd4, ents4, ents4. split; [exact HI|]. now repeat split.
  Qed.

  (* C16 (compressed) *)
  Lemma rollback_unchanged_unless_ok (s s' : cvs) r : cv_rollback s = (s', r) -> r <> Ok tt -> s' = s.
  Proof.
    unfold CvModel.cv_rollback, cv_undo. intros H Hr.
    destruct (s_changes s) as [dir|]; [|now inversion H].
    destruct (lookup_file dir (cv_stamp s)) as [bs|]; [|now inversion H].
    destruct (parse_change bs) as [ch| |]; try (now inversion H).
    destruct (s_stored_len s <? ch_truncated_start T ch); [now inversion H|].
    destruct (ch_truncated_values T ch); inversion H; congruence.
  Qed.

  Lemma rollback_fail_unchanged (s s' : cvs) e : cv_rollback s = (s', Err e) -> s' = s.
  Proof using Type. intros H. apply (rollback_unchanged_unless_ok _ _ _ H). discriminate. Qed.

  (* the retained records as a stack (rollbacks of any depth, C04; counting, C16); one entry: a record's stamp and bytes,
     the contents and the stamp it restores *)
  Record sent := mkSent { k_st : N; k_bs : list N; k_b : list T; k_pst : N }.

  Definition the_dir (s : cvs) : list (N * list N) := match s_changes s with Some d => d | None => [] end.
  Definition stamps_le (dir : list (N * list N)) (c : N) : list N := filter (fun x => x <=? c) (map fst dir).

  Lemma the_dir_lookup {s : cvs} {k bs} : lookup_file (the_dir s) k = Some bs -> s_changes s = Some (the_dir s).
  Proof. unfold the_dir. destruct (s_changes s); [reflexivity|discriminate]. Qed.

  (* applying the records top-down succeeds: each one is valid over the pages `mem`, restores the stamp the next
     one is filed under, and its truncation start does not exceed the stored length its predecessor leaves *)
  Fixpoint StackOK (dir : list (N * list N)) (mem : list ent) (cur lim : N) (stk : list sent) : Prop :=
    match stk with
    | [] => True
    | e :: rest =>
        k_st e = cur /\ lookup_file dir (k_st e) = Some (k_bs e) /\ RecOK mem (k_bs e) (k_b e) (k_pst e) /\
        k_pst e < k_st e /\ k_st e < two64 /\ rec_ts (k_bs e) <= lim /\
        StackOK dir mem (k_pst e) (rec_ts (k_bs e)) rest
    end.

  Definition Chain (s : cvs) (mem : list ent) (stk : list sent) : Prop :=
    NoDup (map fst (the_dir s)) /\
    stamps_le (the_dir s) (cv_stamp s) = rev (map k_st stk) /\
    StackOK (the_dir s) mem (cv_stamp s) (N.min (s_stored_len s) (s_prev_stored_len s)) stk.

  (* what StackOK says of its top entry e.  top_cut is the clause the rollback of e hangs on: rollback() refuses a record
     whose truncation start lies above the stored length (`rollback_refuses`), and lim is what is known of that length *)
  Set Implicit Arguments.
  Record top_ok (dir : list (N * list N)) (mem : list ent) (cur lim : N) (e : sent) : Prop := {
    top_cur : k_st e = cur;
    top_file : lookup_file dir (k_st e) = Some (k_bs e);
    top_rec : RecOK mem (k_bs e) (k_b e) (k_pst e);
    top_older : k_pst e < k_st e;
    top_lt : k_st e < two64;
    top_cut : rec_ts (k_bs e) <= lim }.
  Unset Implicit Arguments.

  Lemma StackOK_cons dir mem cur lim e rest :
    StackOK dir mem cur lim (e :: rest) <-> top_ok dir mem cur lim e /\ StackOK dir mem (k_pst e) (rec_ts (k_bs e)) rest.
  Proof.
    cbn [StackOK]. split; [intros (A & B & C & D & E & F & G); now repeat split|intros [[A B C D E F] G]; auto 10].
  Qed.

  Lemma top_ok_cut {dir mem cur lim e} lim' : top_ok dir mem cur lim e -> rec_ts (k_bs e) <= lim' -> top_ok dir mem cur lim' e.
  Proof.
    intros Tp H. split; [exact (top_cur Tp)|exact (top_file Tp)|exact (top_rec Tp)|exact (top_older Tp)|exact (top_lt Tp)|exact H].
  Qed.

  Lemma StackOK_lim dir mem cur lim lim' stk : lim <= lim' -> StackOK dir mem cur lim stk -> StackOK dir mem cur lim' stk.
  Proof using Bounds.
    destruct stk as [|e rest]; [auto|]. intros H S. apply StackOK_cons in S as [Tp G]. apply StackOK_cons.
    split; [|exact G]. apply (top_ok_cut lim' Tp). pose proof (top_cut Tp). lia.
  Qed.

  Lemma StackOK_each {dir mem cur lim stk} : StackOK dir mem cur lim stk ->
    forall e, In e stk -> k_st e <= cur /\ lookup_file dir (k_st e) = Some (k_bs e).
  Proof.
    revert cur lim; induction stk as [|x rest IH]; intros cur lim H e He; [contradiction|].
    apply StackOK_cons in H as [Tp G]. pose proof (top_cur Tp). pose proof (top_older Tp).
    destruct He as [<-|He]; [split; [lia|exact (top_file Tp)]|].
    destruct (IH _ _ G e He) as [Hx Hl]. split; [lia|exact Hl].
  Qed.

  Lemma StackOK_ts dir mem cur lim stk : StackOK dir mem cur lim stk -> Forall (fun e => rec_ts (k_bs e) <= lim) stk.
  Proof using Bounds.
    revert cur lim; induction stk as [|e rest IH]; intros cur lim H; [constructor|].
    apply StackOK_cons in H as [Tp G]. pose proof (top_cut Tp) as F. constructor; [exact F|].
    eapply Forall_impl; [|exact (IH _ _ G)]. cbn. intros x Hx. lia.
  Qed.

  Lemma StackOK_firstn dir mem : forall n stk cur lim,
    StackOK dir mem cur lim stk -> StackOK dir mem cur lim (firstn n stk).
  Proof.
    induction n as [|n IH]; intros stk cur lim H; [exact I|].
    destruct stk as [|e rest]; [exact I|]. cbn [firstn]. apply StackOK_cons in H as [Tp G].
    apply StackOK_cons. split; [exact Tp|exact (IH _ _ _ G)].
  Qed.

  Lemma RecOK_transfer mem mem' bs b pst X :
    RecOK mem bs b pst -> rec_ts bs <= X -> take X (vals mem') = take X (vals mem) -> X <= len (vals mem') ->
    RecOK mem' bs b pst.
  Proof.
    intros (ch & Hp & Hps & Hts & Hb & Hnil) Hx Ht Hl. rewrite (parse_rec_ts Hp) in Hx.
    exists ch. repeat split; auto; [lia|].
    rewrite Hb. f_equal.
    rewrite <- (take_take (ch_truncated_start T ch) X (vals mem')), Ht by lia. symmetry. apply take_take. lia.
  Qed.

  Lemma StackOK_transfer dir dir' mem mem' X : forall stk cur lim,
    StackOK dir mem cur lim stk -> lim <= X -> take X (vals mem') = take X (vals mem) -> X <= len (vals mem') ->
    (forall e, In e stk -> lookup_file dir' (k_st e) = Some (k_bs e)) ->
    StackOK dir' mem' cur lim stk.
  Proof.
    induction stk as [|e rest IH]; intros cur lim H Hx Ht Hl Hlk; [exact I|].
    apply StackOK_cons in H as [Tp G]. pose proof (top_cut Tp) as F. apply StackOK_cons. split.
    - split; [exact (top_cur Tp)|apply Hlk; now left| |exact (top_older Tp)|exact (top_lt Tp)|exact F].
      apply (RecOK_transfer mem mem' (k_bs e) (k_b e) (k_pst e) X (top_rec Tp)); [lia|exact Ht|exact Hl].
    - apply IH; auto; [lia|]. intros e2 He2. apply Hlk. now right.
  Qed.

  Theorem chain_rollback s hd ents mem e rest s' r :
    InvG s hd ents mem -> Chain s mem (e :: rest) -> cv_rollback s = (s', r) ->
    r = Ok tt /\ InvG s' hd ents mem /\ view s' mem = k_b e /\ cv_stamp s' = k_pst e /\
    BaseOK s' mem (k_b e) /\ Chain s' mem rest /\ s_ssc s' = s_ssc s.
  Proof using Codec.
    intros HI (Hnd & Hst & S) HR. apply StackOK_cons in S as [Tp G].
    pose proof (top_cur Tp) as A. pose proof (top_file Tp) as B. pose proof (top_older Tp) as D.
    pose proof (top_lt Tp) as E. pose proof (top_cut Tp) as F.
    rewrite A in B. pose proof (rollback_ok HI (the_dir_lookup B) B (top_rec Tp) ltac:(lia) HR) as H.
    destruct (N.ltb_spec (s_stored_len s) (rec_ts (k_bs e))); [lia|].
    destruct H as (-> & I' & V' & St' & B' & C' & K' & L1 & L2).
    do 5 (split; [first [reflexivity|assumption]|]). split; [|exact K'].
    unfold Chain, the_dir. rewrite C'. fold (the_dir s). rewrite St', L1, L2, N.min_id.
    split; [exact Hnd|]. split; [|exact G].
    (* the stamps not above the restored stamp are those of the rest of the stack *)
    cbn [map rev] in Hst. rewrite <- A in Hst. unfold stamps_le in *.
    rewrite <- (filter_filter_le (k_pst e) (k_st e)), Hst, filter_app by lia. cbn [filter].
    destruct (N.leb_spec (k_st e) (k_pst e)); [lia|]. rewrite app_nil_r. apply filter_all_id. intros x Hx.
    apply in_rev, in_map_iff in Hx as (e2 & <- & He2). apply N.leb_le.
    exact (proj1 (StackOK_each G e2 He2)).
  Qed.

  Theorem chain_empty s mem : Chain s mem [] -> cv_rollback s = (s, Err EIo).
  Proof using Type.
    intros (Hnd & Hst & _). unfold CvModel.cv_rollback, the_dir in *.
    destruct (s_changes s) as [dir|]; [|reflexivity].
    destruct (lookup_file dir (cv_stamp s)) as [bs|] eqn:E; [exfalso|reflexivity].
    apply lookup_in in E. cbn in Hst. unfold stamps_le in Hst.
    assert (Hin : In (cv_stamp s) (filter (fun x => x <=? cv_stamp s) (map fst dir))).
    { apply filter_In. split; [apply in_map_iff; exists (cv_stamp s, bs); auto|apply N.leb_refl]. }
    rewrite Hst in Hin. contradiction.
  Qed.

  (* save_change_file with a stamp above the current one, on a directory whose stamps up to the current one are
     l (newest first): the newest m of them stay, with their files, and the new record is filed on top *)
  Lemma save_dir_spec (dir : list (N * list N)) cur st data m (l : list N) :
    NoDup (map fst dir) -> stamps_le dir cur = rev l -> cur < st ->
    let dirf := filter (fun f => (fst f <? st) && (fst f <=? cur)) dir in
    let d' := drop (len dirf - m) dirf ++ [(st, data)] in
    NoDup (map fst d') /\ stamps_le d' st = rev (st :: firstn (N.to_nat m) l) /\
    lookup_file d' st = Some data /\
    (forall k bs, In k (firstn (N.to_nat m) l) -> lookup_file dir k = Some bs -> lookup_file d' k = Some bs).
  Proof.
    intros Hnd Hstm Hlt dirf d'. set (ex := len dirf - m) in *.
    (* below the new stamp the filter keeps the stamps not above the current one *)
    assert (Hfst : map fst dirf = rev l).
    { unfold dirf. rewrite <- Hstm. unfold stamps_le.
      rewrite <- (map_fst_filter (fun k => k <=? cur)). f_equal. apply filter_ext. intros [k v]. cbn [fst].
      destruct (N.leb_spec k cur); [|apply andb_false_r]. rewrite andb_true_r. apply N.ltb_lt. lia. }
    assert (Hkept : map fst (drop ex dirf) = rev (firstn (N.to_nat m) l)).
    { unfold ex. change (firstn (N.to_nat m) l) with (take m l). rewrite <- drop_map, <- (len_map fst), Hfst, <- drop_rev_take. unfold len. now rewrite rev_length. }
    assert (Hsub : forall x, In x (drop ex dirf) -> In x dir /\ fst x <= cur).
    { intros x Hx. assert (Hx' : In x dirf) by (rewrite <- (take_drop ex dirf); apply in_or_app; now right).
      apply filter_In in Hx' as [Hx1 Hx2]. apply andb_true_iff in Hx2 as [_ Hx2]. now apply N.leb_le in Hx2. }
    assert (Hnd' : NoDup (map fst d')).
    { unfold d'. rewrite map_app. apply NoDup_app_snoc.
      - rewrite <- drop_map. apply NoDup_drop. unfold dirf.
        rewrite (map_fst_filter (fun k => (k <? st) && (k <=? cur))). now apply NoDup_filter.
      - intros Hin. apply in_map_iff in Hin as (x & Hx1 & Hx2). apply Hsub in Hx2 as [_ Hx2]. cbn in Hx1. lia. }
    split; [exact Hnd'|]. split; [|split].
    - unfold d', stamps_le. rewrite map_app, Hkept. cbn [map fst rev].
      apply filter_all_id. intros x Hx. apply N.leb_le. apply in_app_or in Hx as [Hx|[<-|[]]]; [|lia].
      rewrite <- Hkept in Hx. apply in_map_iff in Hx as (y & <- & Hy). apply Hsub in Hy as [_ Hy]. lia.
    - apply lookup_app_last, Forall_forall. intros x Hx. apply Hsub in Hx as [_ Hx]. lia.
    - intros k bs Hk Hold. apply lookup_in in Hold.
      assert (Hin : In k (map fst (drop ex dirf))) by (rewrite Hkept; now apply -> in_rev).
      apply in_map_iff in Hin as ([k' v] & Hk1 & Hk2). cbn [fst] in Hk1. subst k'.
      destruct (Hsub _ Hk2) as [Hk3 _].
      apply in_lookup; [exact Hnd'|]. apply in_or_app. left.
      assert (v = bs) by (apply (in_lookup Hnd) in Hk3, Hold; congruence). now subst v.
  Qed.

  Theorem chain_commit s hd ents mem b stk st hints s' wb :
    InvG s hd ents mem -> BaseOK s mem b -> Chain s mem stk -> s_ssc s <> 0 ->
    cv_stamp s < st -> st < two64 -> fits s ->
    cv_commit s st hints = (s', Ok wb) ->
    exists ents' bs,
      InvG s' (s_hdr s') ents' ents' /\ vals ents' = view s mem /\ view s' ents' = view s mem /\
      cv_stamp s' = st /\ s_ssc s' = s_ssc s /\ BaseOK s' ents' (view s mem) /\
      Chain s' ents' (mkSent st bs b (cv_stamp s) :: firstn (N.to_nat (s_ssc s - 1)) stk).
  Proof using Codec.
    intros HI HB (Hnd & Hstm & Hstk) Hk Hlt Hst Hfit HC.
    pose proof HB as (Bp & _). pose proof (InvG_bound HI) as Hb.
    destruct (commit_settled HI Hk Hst HC)
      as [Hp|(wb' & ents' & _ & Sy & V2 & St2 & K2 & Pp & Ps & C2)]; [discriminate|].
    pose proof (sy_inv Sy) as I2. pose proof (sy_stored Sy) as L2.
    set (data := ser_bytes s (ser_tv s mem)) in *. set (kept := firstn (N.to_nat (s_ssc s - 1)) stk).
    destruct (save_dir_spec (the_dir s) (cv_stamp s) st data (s_ssc s - 1) (map k_st stk) Hnd Hstm Hlt)
      as (Hnd' & Hstm' & Hlast & Hold).
    unfold save_change_file in C2. fold (the_dir s) in C2.
    assert (Hd' : the_dir s' = _) by (unfold the_dir; rewrite C2; reflexivity). rewrite <- Hd' in Hnd', Hstm', Hlast, Hold.
    rewrite firstn_map in Hstm', Hold.
    assert (Hview' : view s' ents' = view s mem) by (now rewrite (view_synced _ _ Sy)).
    exists ents', data. do 5 (split; [assumption|]).
    split; [rewrite <- V2; exact (BaseOK_synced Sy Pp Ps)|].
    unfold Chain. rewrite St2, Ps, L2, N.min_id. do 2 (split; [assumption|]).
    pose proof (ser_RecOK HI HB Hfit V2) as Rec.
    assert (Hts : rec_ts data = N.min (s_prev_stored_len s) (s_stored_len s))
      by (unfold rec_ts, data; now rewrite (parse_ser_bytes HI Bp Hfit)).
    apply StackOK_cons. split.
    { split; cbn [k_st k_bs k_b k_pst]; [reflexivity|exact Hlast|exact Rec|exact Hlt|exact Hst|].
      rewrite Hts, V2, (view_len s mem Hb). unfold cv_len. lia. }
    cbn [k_bs k_pst]. rewrite Hts.
    apply (StackOK_transfer (the_dir s) (the_dir s') mem ents' (s_stored_len s) kept).
    - apply StackOK_firstn. now rewrite N.min_comm.
    - lia.
    - rewrite V2. now apply take_view.
    - rewrite V2, (view_len s mem Hb). unfold cv_len. lia.
    - intros e He. apply Hold; [now apply in_map|].
      exact (proj2 (StackOK_each (StackOK_firstn _ _ _ _ _ _ Hstk) e He)).
  Qed.

  (* the reference of C04/C16: contents, stamp, baseline and the stack of committed snapshots *)
  Record sspec := mkSS { ss_cur : list T; ss_stamp : N; ss_base : list T; ss_undo : list (list T * N) }.

  (* rollback_before on the reference: pop while the stamp is not below the target *)
  Fixpoint ss_rb (undo : list (list T * N)) (cur : list T) (stamp : N) (base : list T) (t : N) : sspec :=
    match undo with
    | [] => mkSS cur stamp base []
    | (c, st) :: rest => if stamp <? t then mkSS cur stamp base undo else ss_rb rest c st c t
    end.

  Definition ss_step (k : N) (a : sspec) (o : op) : sspec :=
    match o with
    | Push vs => mkSS (ss_cur a ++ vs) (ss_stamp a) (ss_base a) (ss_undo a)
    | Trunc n => mkSS (if n <? len (ss_cur a) then take n (ss_cur a) else ss_cur a) (ss_stamp a) (ss_base a) (ss_undo a)
    | StampedWrite st _ =>
        mkSS (ss_cur a) st (ss_cur a) (firstn (N.to_nat k) ((ss_base a, ss_stamp a) :: ss_undo a))
    | Rollback => match ss_undo a with (c, st) :: rest => mkSS c st c rest | [] => a end
    | RollbackBefore t => ss_rb (ss_undo a) (ss_cur a) (ss_stamp a) (ss_base a) t
    | _ => a
    end.
  Definition ss_run (k : N) (a : sspec) (h : list op) : sspec := fold_left (ss_step k) h a.

  Definition snap (e : sent) : list T * N := (k_b e, k_pst e).

  Definition RC (s : cvs) (a : sspec) : Prop :=
    exists hd ents mem stk, InvG s hd ents mem /\ BaseOK s mem (ss_base a) /\ Chain s mem stk /\
      view s mem = ss_cur a /\ cv_stamp s = ss_stamp a /\ map snap stk = ss_undo a.

  Lemma RC_intro s hd ents mem stk cur stamp base :
    InvG s hd ents mem -> BaseOK s mem base -> Chain s mem stk -> view s mem = cur -> cv_stamp s = stamp ->
    RC s (mkSS cur stamp base (map snap stk)).
  Proof. intros. now exists hd, ents, mem, stk. Qed.

  (* the operations of a commit/rollback history outside the known class: a truncation must not go below the
     truncation start of the retained record of the current stamp (decidable: rollback_refuses), commits use
     increasing stamps *)
  Definition cop_ok (s : cvs) (o : op) : Prop :=
    match o with
    | Push _ | Rollback | RollbackBefore _ => True
    | Trunc n => rollback_refuses (cv_truncate s n) = false
    | StampedWrite st _ => cv_stamp s < st /\ st < two64 /\ fits s
    | _ => False
    end.
  Fixpoint chain_hist (s : cvs) (h : list op) : Prop :=
    match h with
    | [] => True
    | o :: t => cop_ok s o /\ chain_hist (fst (cv_step s o)) t
    end.

  Lemma rollback_RC s a s' r : RC s a -> cv_step s Rollback = (s', r) ->
    RC s' (ss_step (s_ssc s) a Rollback) /\ s_ssc s' = s_ssc s /\
    r = match ss_undo a with [] => Err EIo | _ => Ok false end /\
    (ss_undo a = [] -> s' = s).
  Proof.
    intros (hd & ents & mem & stk & HI & HB & HC & Hv & Hs & Hu) HS.
    cbn [CvModel.cv_step] in HS. unfold unit_res in HS. destruct (cv_rollback s) as [s1 r1] eqn:ER.
    cbn [ss_step]. rewrite <- Hu. destruct stk as [|e rest]; cbn [map].
    - rewrite (chain_empty _ _ HC) in ER. inversion ER; subst s1 r1. inversion HS; subst s' r.
      split; [now exists hd, ents, mem, []|now repeat split].
    - destruct (chain_rollback _ _ _ _ _ _ _ _ HI HC ER) as (-> & I1 & V1 & S1 & B1 & C1 & K1).
      inversion HS; subst s' r. split; [now apply (RC_intro _ hd ents mem rest)|now repeat split].
  Qed.

  Lemma rb_loop_chain t : forall stk s hd ents mem cur stamp base,
    InvG s hd ents mem -> BaseOK s mem base -> Chain s mem stk -> view s mem = cur -> cv_stamp s = stamp ->
    exists s', rb_loop T size dec s t (map k_st stk) = (s', Ok tt) /\
      RC s' (ss_rb (map snap stk) cur stamp base t) /\ s_ssc s' = s_ssc s.
  Proof.
    induction stk as [|e rest IH]; intros s hd ents mem cur stamp base HI HB HC Hv Hs; cbn [map rb_loop ss_rb snap].
    - exists s. split; [reflexivity|]. split; [now apply (RC_intro _ hd ents mem [])|reflexivity].
    - rewrite Hs. destruct (stamp <? t).
      + exists s. split; [reflexivity|]. split; [now apply (RC_intro _ hd ents mem (e :: rest))|reflexivity].
      + pose proof HC as (_ & _ & S). apply StackOK_cons in S as [Tp _].
        rewrite (top_cur Tp), <- Hs, N.eqb_refl. cbn [negb].
        destruct (cv_rollback s) as [s1 r1] eqn:ER.
        destruct (chain_rollback _ _ _ _ _ _ _ _ HI HC ER) as (-> & I1 & V1 & S1 & B1 & C1 & K1).
        destruct (IH s1 hd ents mem _ _ _ I1 B1 C1 V1 S1) as (s' & L & R' & K').
        exists s'. split; [exact L|]. split; [exact R'|congruence].
  Qed.

  Theorem rollback_before_RC s a t s' r : RC s a -> cv_step s (RollbackBefore t) = (s', r) ->
    RC s' (ss_rb (ss_undo a) (ss_cur a) (ss_stamp a) (ss_base a) t) /\ s_ssc s' = s_ssc s /\
    (r = Ok false \/ (r = Err EIo /\ s_changes s = None /\ s' = s)).
  Proof using Codec.
    intros (hd & ents & mem & stk & HI & HB & HC & Hv & Hs & Hu) HS. rewrite <- Hu.
    cbn [CvModel.cv_step] in HS. unfold unit_res, cv_rollback_before in HS.
    pose proof HC as (_ & Hstm & _). unfold the_dir, stamps_le in Hstm.
    destruct (s_changes s) as [dir|].
    - rewrite Hstm, rev_involutive in HS.
      destruct (rb_loop_chain t stk s hd ents mem _ _ _ HI HB HC Hv Hs) as (s2 & L & R2 & K2).
      rewrite L in HS. inversion HS; subst s' r. split; [exact R2|]. split; [exact K2|now left].
    - inversion HS; subst s' r.
      assert (stk = []) by (destruct stk; [reflexivity|]; cbn in Hstm; now destruct (rev (map k_st stk))).
      subst stk. split; [now apply (RC_intro _ hd ents mem [])|]. split; [reflexivity|right; auto].
  Qed.

  Theorem chain_step s a o s' r :
    RC s a -> s_ssc s <> 0 -> cop_ok s o -> cv_step s o = (s', r) ->
    r = Panic \/
    (RC s' (ss_step (s_ssc s) a o) /\ s_ssc s' = s_ssc s /\
     match o with
     | Rollback => r = match ss_undo a with [] => Err EIo | _ => Ok false end
     | RollbackBefore _ => r = Ok false \/ (r = Err EIo /\ s_changes s = None)
     | _ => exists b, r = Ok b
     end).
  Proof using Codec.
    intros HR Hk Hok HS. pose proof HR as (hd & ents & mem & stk & HI & HB & HC & Hv & Hs & Hu).
    destruct o as [vs|n|hints|hints| | |st hints| |t]; cbn [cop_ok] in Hok; try contradiction.
    - inversion HS; subst s' r. right. split; [|split; [reflexivity|eauto]]. cbn [ss_step]. rewrite <- Hu, <- Hv.
      apply (RC_intro _ hd ents mem stk); auto. apply view_push.
    - inversion HS; subst s' r. right.
      destruct (truncate_ok n HI) as (I1 & SR & L1 & V1).
      split; [|split; [exact (sr_ssc SR)|eauto]]. cbn [ss_step]. rewrite <- Hu, <- Hv, <- V1.
      apply (RC_intro _ hd ents mem stk); auto; [exact (BaseOK_same_roll SR HB)| |now rewrite (same_roll_stamp _ _ SR)].
      destruct HC as (Hnd & Hstm & Hstk). unfold Chain, the_dir.
      rewrite (same_roll_stamp _ _ SR), (sr_changes SR), (sr_prev_stored_len SR).
      split; [exact Hnd|]. split; [exact Hstm|]. destruct stk as [|e rest]; [exact I|].
      apply StackOK_cons in Hstk as [Tp G]. apply StackOK_cons. split; [|exact G]. apply (top_ok_cut _ Tp).
      (* the truncation stays above the truncation start of the top record: that is cop_ok *)
      pose proof (top_file Tp) as B. rewrite (top_cur Tp) in B.
      rewrite (refuses_eq (cv_truncate s n) (the_dir s) (k_bs e)) in Hok;
        [|rewrite (sr_changes SR); exact (the_dir_lookup B)|rewrite (same_roll_stamp _ _ SR); exact B].
      apply N.ltb_ge in Hok. pose proof (top_cut Tp). lia.
    - destruct Hok as (Hlt & Hst & Hfit). cbn [CvModel.cv_step] in HS.
      destruct (commit_settled HI Hk Hst HS) as [->|(wb & _ & -> & _)]; [now left|right].
      destruct (chain_commit _ _ _ _ _ _ _ _ _ _ HI HB HC Hk Hlt Hst Hfit HS)
        as (ents2 & bs2 & I2 & V2 & W2 & St2 & K2 & B2 & C2).
      split; [|split; [exact K2|eauto]]. cbn [ss_step]. rewrite <- Hu, <- Hv, <- Hs.
      replace (N.to_nat (s_ssc s)) with (S (N.to_nat (s_ssc s - 1))) by lia. cbn [firstn]. rewrite firstn_map.
      exact (RC_intro _ _ ents2 ents2 (mkSent st bs2 (ss_base a) (cv_stamp s) :: _) _ _ _ I2 B2 C2 W2 St2).
    - destruct (rollback_RC s a s' r HR HS) as (R' & K' & Hr & _). now right.
    - destruct (rollback_before_RC s a t s' r HR HS) as (R' & K' & [Hr|(Hr & Hd & _)]); right; auto.
  Qed.

  Theorem chain_run : forall h s a, RC s a -> s_ssc s <> 0 -> chain_hist s h -> no_panic s h ->
    RC (cv_run s h) (ss_run (s_ssc s) a h) /\ s_ssc (cv_run s h) = s_ssc s.
  Proof using Codec.
    induction h as [|o t IH]; intros s a HR Hk Hch Hnp; [split; [exact HR|reflexivity]|].
    destruct Hch as [Ho Ht]. destruct Hnp as [Hn1 Hn2]. rewrite cv_run_cons.
    destruct (cv_step s o) as [s' r] eqn:ES. cbn [fst snd] in *.
    destruct (chain_step s a o s' r HR Hk Ho ES) as [->|(R' & K' & _)]; [congruence|].
    destruct (IH s' (ss_step (s_ssc s) a o) R' ltac:(now rewrite K') Ht Hn2) as [IH1 IH2].
    rewrite K' in IH1. split; [exact IH1|congruence].
  Qed.

  Lemma RC_collect s a : RC s a -> cv_collect T size dec decompress s = Ok (ss_cur a) /\ cv_stamp s = ss_stamp a.
  Proof using Codec.
    intros (hd & ents & mem & stk & HI & _ & _ & Hv & Hs & _).
    split; [rewrite (collect_view _ _ _ _ HI); now rewrite Hv|exact Hs].
  Qed.

  Fixpoint rollbacks_ok (s : cvs) (n : nat) : Prop :=
    match n with
    | O => True
    | S m => snd (cv_step s Rollback) = Ok false /\ rollbacks_ok (fst (cv_step s Rollback)) m
    end.

  Theorem count_rollbacks : forall n s a, RC s a -> length (ss_undo a) = n ->
    rollbacks_ok s n /\
    RC (cv_run s (repeat Rollback n)) (ss_run (s_ssc s) a (repeat Rollback n)) /\
    ss_undo (ss_run (s_ssc s) a (repeat Rollback n)) = [] /\
    cv_step (cv_run s (repeat Rollback n)) Rollback = (cv_run s (repeat Rollback n), Err EIo).
  Proof using Codec.
    induction n as [|n IH]; intros s a HR Hn; destruct (cv_step s Rollback) as [s' r] eqn:ES;
      destruct (rollback_RC s a s' r HR ES) as (R' & K' & Hr & Hs).
    - apply length_zero_iff_nil in Hn. rewrite Hn in Hr. rewrite Hr, (Hs Hn) in ES.
      split; [exact I|]. split; [exact HR|]. split; [exact Hn|exact ES].
    - destruct (ss_undo a) as [|[c st] rest] eqn:Eu; [discriminate|].
      destruct (IH s' _ R') as (I1 & I2 & I3 & I4); [cbn [ss_step]; rewrite Eu; now injection Hn|].
      rewrite K' in *. cbn [repeat rollbacks_ok]. unfold ss_run. rewrite cv_run_cons. cbn [fold_left]. rewrite ES.
      now repeat split.
  Qed.

  Definition is_pc (o : op) : Prop := match o with Push _ | StampedWrite _ _ => True | _ => False end.
  Fixpoint commits (h : list op) : nat :=
    match h with [] => O | StampedWrite _ _ :: t => S (commits t) | _ :: t => commits t end.

  Lemma ss_count k : forall h a, Forall is_pc h -> (length (ss_undo a) <= N.to_nat k)%nat ->
    length (ss_undo (ss_run k a h)) = Nat.min (N.to_nat k) (length (ss_undo a) + commits h).
  Proof using Bounds.
    induction h as [|o t IH]; intros a Hp Hl.
    - cbn. lia.
    - inversion Hp as [|? ? Ho Ht]; subst. unfold ss_run. cbn [fold_left]. fold (ss_run k (ss_step k a o) t).
      destruct o; try contradiction.
      + rewrite IH; auto.
      + rewrite IH; auto; cbn [ss_step ss_undo commits]; rewrite firstn_length; cbn [length]; lia.
  Qed.

  Lemma init_RC k s0 : cv_import_k T size fmt vver k None [] [] = Ok s0 ->
    RC s0 (mkSS [] 0 [] []) /\ s_ssc s0 = k.
  Proof.
    unfold cv_import_k. destruct (cv_import T size fmt vver [] []) as [s1| |] eqn:E; try discriminate.
    cbn [bind]. intros H. inversion H; subst s0. clear H.
    destruct (init_R s1 E) as (hd & ents & mem & HI & R1 & R2 & _).
    rewrite cv_import_empty in E. inversion E; subst s1. clear E. split; [|reflexivity].
    apply (RC_intro _ hd ents mem []); [|split; [apply N.le_0_l|reflexivity]|repeat split; constructor|now symmetry..].
    eapply InvG_same; [..|exact HI]; reflexivity.
  Qed.

  (* C16_comp_count: after any push/commit history (n commits, increasing stamps, retention k > 0) exactly
     min(k, n) consecutive rollbacks succeed, their results follow the snapshot stack, the next one is refused *)
  Theorem comp_count k s0 h :
    cv_import_k T size fmt vver k None [] [] = Ok s0 -> k <> 0 ->
    Forall is_pc h -> chain_hist s0 h -> no_panic s0 h ->
    let s := cv_run s0 h in
    let a := ss_run k (mkSS [] 0 [] []) h in
    let m := Nat.min (N.to_nat k) (commits h) in
    rollbacks_ok s m /\
    RC (cv_run s (repeat Rollback m)) (ss_run k a (repeat Rollback m)) /\
    cv_step (cv_run s (repeat Rollback m)) Rollback = (cv_run s (repeat Rollback m), Err EIo).
  Proof using Codec fmt_ok.
    intros Hi Hk Hp Hch Hnp. cbv zeta.
    destruct (init_RC k s0 Hi) as (R0 & K0).
    destruct (chain_run h s0 _ R0 ltac:(now rewrite K0) Hch Hnp) as (R1 & K1). rewrite K0 in *.
    pose proof (ss_count k h (mkSS [] 0 [] []) Hp ltac:(cbn; lia)) as Hc. cbn [ss_undo length] in Hc.
    rewrite Nat.add_0_l in Hc.
    destruct (count_rollbacks _ _ _ R1 Hc) as (C1 & C2 & _ & C4). rewrite K1 in C2.
    split; [exact C1|]. split; [exact C2|exact C4].
  Qed.

  (* whatever the records are: when the walk stops with an error, the state is the one reached by the
     rollbacks that succeeded before it (each of which is exact by chain_rollback when its record is valid) *)
  Inductive rolled : cvs -> cvs -> Prop :=
  | rolled_refl s : rolled s s
  | rolled_step s s1 s2 : cv_rollback s = (s1, Ok tt) -> rolled s1 s2 -> rolled s s2.

  Lemma rb_loop_rolled t : forall stamps s s' r, rb_loop T size dec s t stamps = (s', r) -> rolled s s'.
  Proof.
    induction stamps as [|fs rest IH]; intros s s' r H; cbn [rb_loop] in H.
    - inversion H. constructor.
    - destruct (cv_stamp s <? t); [inversion H; constructor|].
      destruct (negb (fs =? cv_stamp s)); [inversion H; constructor|].
      destruct (cv_rollback s) as [s1 r1] eqn:ER. destruct r1 as [[]|e|].
      + eapply rolled_step; [exact ER|]. eapply IH; eauto.
      + inversion H; subst. rewrite (rollback_unchanged_unless_ok _ _ _ ER) by discriminate. constructor.
      + inversion H; subst. rewrite (rollback_unchanged_unless_ok _ _ _ ER) by discriminate. constructor.
  Qed.

  Theorem rollback_before_passed s t s' r : cv_rollback_before T size dec s t = (s', r) -> rolled s s'.
  Proof using Type.
    unfold cv_rollback_before. destruct (s_changes s); [|intros H; inversion H; constructor].
    apply rb_loop_rolled.
  Qed.

  Lemma ss_rb_ends t : forall undo cur stamp base,
    let a' := ss_rb undo cur stamp base t in
    (ss_stamp a' < t \/ ss_undo a' = []) /\
    exists pre, undo = pre ++ ss_undo a' /\
      (pre = [] -> ss_cur a' = cur /\ ss_stamp a' = stamp) /\
      (pre <> [] -> t <= stamp /\ exists pre', pre = pre' ++ [(ss_cur a', ss_stamp a')]).
  Proof using Type.
    induction undo as [|[c st] rest IH]; intros cur stamp base; cbn [ss_rb].
    - cbn. split; [now right|]. exists []. split; [reflexivity|]. split; [auto|congruence].
    - destruct (stamp <? t) eqn:E.
      + cbn. split; [left; now apply N.ltb_lt|]. exists []. split; [reflexivity|]. split; [auto|congruence].
      + apply N.ltb_ge in E. specialize (IH c st c). cbv zeta in IH.
        destruct IH as (IH1 & pre & Hp & Hn & Hc). split; [exact IH1|].
        exists ((c, st) :: pre). split; [cbn; now rewrite <- Hp|]. split; [discriminate|].
        intros _. split; [exact E|].
        destruct pre as [|x pre0].
        * destruct (Hn eq_refl) as (-> & ->). exists []. reflexivity.
        * destruct (Hc ltac:(discriminate)) as (_ & pre' & Hpre). exists ((c, st) :: pre'). cbn. now rewrite Hpre.
  Qed.
End Inv.
